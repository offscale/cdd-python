(* C15 -- docstring prose outside the parameter section is preserved. *)
From Coq Require Import Lia.
From CDD Require Import PyStr PyStrFacts DocSplit DocSplitProofs.

(* The three parts are slices doc[:start], doc[start:last], doc[last:].  Whatever the two index
   functions compute, as long as start <= last (or one of them is "not found") the parts
   concatenate to the docstring exactly -- for every string and every pair of indices. *)
Theorem C15_slices : forall doc s l,
  (-1 <= s)%Z -> (-1 <= l)%Z -> (s = -1 \/ l = -1 \/ s <= l)%Z ->
  concat3 (split3 doc s l) = doc.
Proof.
  intros doc s l Hs Hl Hord. unfold concat3, split3.
  destruct (Z.ltb_spec (-1) s); destruct (Z.ltb_spec (-1) l); destruct (Z.eqb_spec l (-1)); try lia; cbn [app]; rewrite ?app_nil_r.
  - apply slice_tile. lia.
  - rewrite slice_end by lia. apply slice_to_from.
  - apply (slice_to_from doc l).
  - rewrite slice_end by lia. exact (slice_from_nonneg doc 0 (Z.le_refl 0)).
Qed.
Print Assumptions C15_slices.

(* the header ends at a line boundary: the start index is -1 or the first character of a line, so
   the header consists of whole lines of the original, in order *)
Theorem C15_start_is_line_start : forall doc,
  get_token_start_idx doc = (-1)%Z \/
  exists p, get_token_start_idx doc = Z.of_nat p /\ (p <= length doc)%nat /\ line_start doc p.
Proof. intro doc. exact (scan_line_start doc doc [] [] eq_refl (or_introl eq_refl)). Qed.
Print Assumptions C15_start_is_line_start.

(* re-assembly never rewrites the prose: the header is a prefix and the footer a suffix of the
   result, character for character, for all three arguments *)
Theorem C15_header_prefix : forall header args_returns footer,
  exists rest, header_args_footer_to_str header args_returns footer = header ++ rest.
Proof. intros header args_returns footer. unfold header_args_footer_to_str. eexists. reflexivity. Qed.
Theorem C15_footer_suffix : forall header args_returns footer,
  exists pre, header_args_footer_to_str header args_returns footer = pre ++ footer.
Proof. intros header args_returns footer. unfold header_args_footer_to_str. do 4 apply suffix_app. exists []. reflexivity. Qed.
Print Assumptions C15_header_prefix.

Example C15_start_example :
  get_token_start_idx (s2l "Summary line.

More prose here.

:param a: the a
:type a: ```int```
") = 33%Z.
Proof. vm_compute. reflexivity. Qed.
Example C15_slices_nonvacuous : concat3 (split3 (s2l "hdr\n:param a: x\nfoot") 4 15) = s2l "hdr\n:param a: x\nfoot".
Proof. vm_compute. reflexivity. Qed.

(* ReST -> ReST through the parser and the emitter (Model/RestDoc.v, tied to the code by C01's correspondence): for every
   description of the domain of C01_rest_roundtrip the header prose is read back unchanged, none of it ends up in a
   parameter's description or type, and the re-emitted docstring starts with it. *)
From CDD Require Import RestDoc RestDocProofs.
Theorem C15_rest_header_survives : forall doc ps ret,
  clean doc = true -> forallb param_ok ps = true -> NoDup (map fst ps) -> ps <> [] -> ret_ok ret = true ->
  let p := parse_rest (emit_rest true doc ps ret) in
  p_doc p = doc /\ p_params p = ps /\ exists rest, emit_rest true (p_doc p) (p_params p) (p_ret p) = doc ++ rest.
Proof.
  intros doc ps ret H1 H2 H3 H4 H5. cbn zeta. rewrite (rest_roundtrip doc ps ret H1 H2 H3 H5 (or_introl H4)). cbn [p_doc p_params p_ret].
  repeat split. rewrite (emit_is_render doc ps ret H1 H2 H5 (or_introl H4)). unfold render. rewrite <- app_assoc. eexists. reflexivity.
Qed.
Print Assumptions C15_rest_header_survives.

(* the section tokens of Model/DocSplit.v are the source's TOKENS_SET (first line of every token of the three styles; regenerated
   from cdd/shared/docstring_utils.py by translate/constants.py, which also checks the expression that builds the set) *)
From CDD Require Import SourceConstants.
Theorem C15_tokens_set_is_the_sources : tokens_set = src_tokens_set_sorted.
Proof. vm_compute. reflexivity. Qed.

(* ---- where the prose of a Google-style docstring ends (Model/GoogleHead.v: location_within of "Args:" and the text in front of it, as
   _scan_phase_numpydoc_and_google computes it, and the description _parse_phase_numpydoc_and_google derives from it; both compared
   with the code each run).  For EVERY colon-free header that is not blank at either end -- one paragraph or several -- and EVERY
   blank separator (a line break, a blank line, an indented blank line, nothing), the description of the parsed interface is that
   header, whole: a paragraph that runs straight into "Args:" is not lost. *)
From CDD Require GoogleLine GoogleLineProofs GoogleHead GoogleHeadProofs.
Theorem C15_google_header_kept : forall H sep rest : str,
  RestDocProofs.head_ok H = true -> RestDocProofs.head_ok (rev H) = true -> GoogleLineProofs.lacks GoogleLine.GCOLON H = true ->
  RestDocProofs.blank sep = true ->
  fst (GoogleHead.google_scan_head (H ++ sep ++ GoogleHead.ARGS ++ rest)) = H /\ GoogleHead.google_ir_doc (H ++ sep ++ GoogleHead.ARGS ++ rest) = H.
Proof.
  intros H sep rest H1 H2 HC B. destruct (GoogleHeadProofs.google_head_general [] H sep rest eq_refl H1 H2 HC B) as [E1 E2].
  split; [exact (f_equal fst E1) | exact E2].
Qed.
Print Assumptions C15_google_header_kept.
Example C15_google_header_examples :
  GoogleHead.google_ir_doc (s2l "Scale it." ++ [NL; NL] ++ s2l "Nothing is modified in place." ++ [NL] ++ s2l "Args:" ++ [NL] ++ s2l "  x (int): v")
  = s2l "Scale it." ++ [NL; NL] ++ s2l "Nothing is modified in place."
  /\ GoogleHead.google_ir_doc (s2l "Scale it." ++ [NL; SP; SP; SP; SP; NL; SP; SP; SP; SP] ++ s2l "Args:" ++ [NL] ++ s2l "  x (int): v") = s2l "Scale it."
  /\ GoogleHead.google_ir_doc (s2l "No section here") = s2l "No section here".
Proof. exact GoogleHeadProofs.google_header_examples. Qed.
(* outside the domain: prose that spells the token loses everything behind it (the FIRST "Args:" wins) *)
Example C15_google_header_refuted :
  GoogleHead.google_ir_doc (s2l "See Args: below." ++ [NL; NL] ++ s2l "Args:" ++ [NL] ++ s2l "  x: v") = s2l "See".
Proof. exact GoogleHeadProofs.google_header_refuted. Qed.
