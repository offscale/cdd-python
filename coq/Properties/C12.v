(* C12 -- sync makes every target equivalent to the truth, then is a no-op (decision table of _conform_filename). *)
From CDD Require Import PyStr PyStrFacts Sync SyncProofs.

Definition cex_ (find : str -> list (item str str) -> option str) := conform_existing str str_eqb str str_eqb find.
Definition conform_ (find : str -> list (item str str) -> option str) := conform str str_eqb str str_eqb find.
Definition lookup_ := lookup str str_eqb str.

(* whatever find_in_ast does, for every kind of target and every existing file: code outside the named target is unchanged *)
Theorem C12_outside_unchanged : forall find k n gold items items',
  cex_ find k n gold items = Some items' ->
  other_defs str str_eqb str n items' = other_defs str str_eqb str n items.
Proof. apply outside_unchanged. exact str_eqb_refl. Qed.
Print Assumptions C12_outside_unchanged.

(* a missing class / argparse target file is created with exactly the truth's interface, under the name the
   emitter uses when it is given no options ... *)
Theorem C12_created_equiv : forall find k n gname gold, k <> KFunction ->
  conform_ find k n gname gold None = Some (Some [Def str str gname gold]) /\ lookup_ gname [Def str str gname gold] = Some gold.
Proof. intros. apply created_equiv; [exact str_eqb_refl | assumption]. Qed.
(* ... REFUTED as a statement about the NAMED target when that name differs (a missing class file synced from a
   function truth is written as `class <function name>`), and for a missing function file (the command fails) *)
Theorem C12_created_wrong_name_refuted : forall find k n gname gold, k <> KFunction -> str_eqb gname n = false ->
  exists items, conform_ find k n gname gold None = Some (Some items) /\ lookup_ n items = None.
Proof. apply created_wrong_name. Qed.
Theorem C12_missing_function_refuted : forall find n gname gold, conform_ find KFunction n gname gold None = None.
Proof. apply missing_function_crashes. Qed.

(* a class target that find_in_ast locates ends up with the truth's interface ... *)
Theorem C12_class_target_equiv : forall find n gold items old items',
  find n items = Some old -> lookup_ n items = Some old ->
  cex_ find KClass n gold items = Some items' -> lookup_ n items' = Some gold.
Proof. apply class_target_equiv. intros a b H. apply str_eqb_eq. exact H. Qed.
Print Assumptions C12_class_target_equiv.

(* ... and a second run is then a no-op (when the lookup finds what is there) *)
Theorem C12_idempotent_partial : forall find n gold items items',
  (forall l, find n l = lookup_ n l) ->
  cex_ find KClass n gold items = Some items' -> cex_ find KClass n gold items' = Some items'.
Proof. apply class_idempotent; exact str_eqb_refl. Qed.
Print Assumptions C12_idempotent_partial.

(* REFUTED for function and argparse targets: an existing target that differs from the truth is left as it was *)
Theorem C12_function_target_refuted : forall find k n gold items old,
  k <> KClass -> find n items = Some old -> str_eqb old gold = false -> cex_ find k n gold items = Some items.
Proof. apply function_target_untouched. Qed.

(* REFUTED when find_in_ast misses an existing definition: the target is appended again on every run *)
Theorem C12_append_refuted : forall find k n gold items,
  find n items = None -> find n (items ++ [Def str str n gold]) = None ->
  cex_ find k n gold (items ++ [Def str str n gold]) = Some ((items ++ [Def str str n gold]) ++ [Def str str n gold]).
Proof. intros find k n gold items _. apply append_grows. Qed.

(* cmp_ast is the change detector: `sync` prints "unchanged" and leaves a target alone exactly when it answers True.  For every
   pair of Python object trees (instances of one class carrying the same number of fields, as Python guarantees): it answers
   True only for equal trees -- in particular never for a list that is a proper prefix of the other -- and always for equal ones. *)
From CDD Require Import CmpAst CmpAstProofs.
Theorem C12_cmp_ast_only_equal : forall a b, same_arity a b = true -> cmp_ast a b = true -> a = b.
Proof.
  apply (pyobj_rect' only_equal); unfold only_equal.
  - intros c x HF [d y| | |] Ha Hc; try discriminate. exact (node_only_equal c d x y HF Ha Hc).
  - intros x HF [|y| |] Ha Hc; try discriminate. f_equal. exact (children_only_equal x y HF Hc Ha).
  - intros x HF [| |y|] Ha Hc; try discriminate. f_equal. exact (children_only_equal x y HF Hc Ha).
  - intros t r [| | |u s] _ Hc; try discriminate. cbn in Hc. apply andb_true_iff in Hc as [E1 E2].
    apply str_eqb_eq in E1. apply str_eqb_eq in E2. subst. reflexivity.
Qed.
Print Assumptions C12_cmp_ast_only_equal.
Theorem C12_cmp_ast_reflexive : forall a, cmp_ast a a = true.
Proof.
  apply pyobj_rect'; intros.
  - rewrite cmp_unfold_node, str_eqb_refl. apply go_cmp_refl. assumption.
  - rewrite cmp_unfold_lst, Nat.eqb_refl. apply go_cmp_refl. assumption.
  - rewrite cmp_unfold_tup, Nat.eqb_refl. apply go_cmp_refl. assumption.
  - cbn. rewrite !str_eqb_refl. reflexivity.
Qed.
Theorem C12_cmp_ast_lists_same_length : forall x y, cmp_ast (Lst x) (Lst y) = true -> length x = length y.
Proof. intros x y H. rewrite cmp_unfold_lst in H. apply andb_true_iff in H as [H _]. apply Nat.eqb_eq, H. Qed.
Example C12_cmp_ast_prefix_example :
  cmp_ast (Lst [Atom (s2l "int") (s2l "1"); Atom (s2l "int") (s2l "2")]) (Lst [Atom (s2l "int") (s2l "1")]) = false
  /\ cmp_ast (Lst []) (Lst [Atom (s2l "int") (s2l "1")]) = false.
Proof. split; vm_compute; reflexivity. Qed.

(* ---- how sync finds its target in a listed file: find_in_ast [name] (Model/FindAst.v, a transcription compared with the code each
   run).  For EVERY module in which no earlier top-level sibling is a function with a positional parameter called like the target
   (nor an annotated assignment / class of that name -- which would BE the first definition of the name), the first top-level
   definition of the name is found, at its position. *)
From CDD Require Rewrite FindAst FindAstProofs.
Theorem C12_target_lookup : forall n pre x post,
  forallb (FindAstProofs.inert [n] [] n []) pre = true -> FindAst.node_loc [] x = Some [n] ->
  FindAst.find_in_ast [n] (pre ++ x :: post) = FindAst.FNode [length pre].
Proof. intros n pre x post Hp Hx. exact (FindAstProofs.outer_last 1 [n] n [] [] pre x post (None, []) eq_refl Hp Hx). Qed.
Print Assumptions C12_target_lookup.

(* otherwise: an earlier function's parameter of that name is returned instead of the definition *)
Theorem C12_target_lookup_refuted :
  FindAst.find_in_ast [s2l "n"] [Rewrite.NFunc (s2l "g") [FindAstProofs.A "n"] [] [] 1; Rewrite.NClass (s2l "n") []] = FindAst.FArg [0%nat] 0.
Proof. exact FindAstProofs.parameter_shadows_name. Qed.
