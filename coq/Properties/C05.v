(* C05 -- SQLAlchemy forms agree and carry exactly one primary key (the mechanism). *)
From CDD Require Import PyStr SqlPk SqlPkProofs.

(* ensure_has_primary_key, which all three emitters run on the parameters before building the columns:
   for EVERY list of (distinct) column names and descriptions with at most one [PK] marker, and both values
   of force_pk_id, the result carries exactly one [PK] marker. *)
Theorem C05_one_pk : forall force ps,
  NoDup (map fst ps) -> (count_pk ps <= 1)%nat -> count_pk (ensure_pk force ps) = 1%nat.
Proof.
  intros force ps Hnd Hle. unfold ensure_pk. destruct (existsb is_pk (map snd ps)) eqn:E; [apply count_present; assumption|].
  pose proof (count_zero ps E) as Hz.
  destruct (filter candidate (map fst ps)) as [|c [|c2 r]] eqn:F; try (apply count_id_fallback; assumption).
  destruct force; [apply count_id_fallback; assumption|]. apply count_mark; [exact Hnd | | exact Hz].
  apply (proj1 (filter_In candidate c (map fst ps))). rewrite F. left. reflexivity.
Qed.
Print Assumptions C05_one_pk.

Example C05_examples :
  ensure_pk false [(s2l "dataset_name", s2l "name of dataset"); (s2l "size", s2l "how big")]
    = [(s2l "dataset_name", s2l "[PK] name of dataset"); (s2l "size", s2l "how big")]
  /\ ensure_pk true [(s2l "dataset_name", s2l "name of dataset")]
    = [(s2l "dataset_name", s2l "name of dataset"); (s2l "id", s2l "[PK]")]
  /\ ensure_pk false [(s2l "a", s2l "[PK] x"); (s2l "b_id", s2l "y")] = [(s2l "a", s2l "[PK] x"); (s2l "b_id", s2l "y")].
Proof. repeat split; vm_compute; reflexivity. Qed.

(* Where the three emitters get their columns (Gen/SqlEmitters.v, regenerated from cdd/sqlalchemy/emit.py on every run): the Table
   expression and the declarative class both map param_to_sqlalchemy_column_calls over
   ensure_has_primary_key(intermediate_repr["params"], force_pk_id), and the hybrid class delegates to sqlalchemy_table forwarding
   the interface and force_pk_id unchanged.  With C05_one_pk this is why the three variants carry the same columns and one key. *)
From Coq Require Import String.
From CDD Require Import SqlEmitters.
Theorem C05_variants_share_the_column_source :
  sql_emitter_calls =
  [("sqlalchemy_table", "param_to_sqlalchemy_column_calls", "include_name=True");
   ("sqlalchemy_table", "ensure_has_primary_key", "intermediate_repr['params'], force_pk_id");
   ("sqlalchemy", "param_to_sqlalchemy_column_calls", "name_param, include_name=False");
   ("sqlalchemy", "ensure_has_primary_key", "intermediate_repr['params'], force_pk_id");
   ("sqlalchemy_hybrid", "sqlalchemy_table", "docstring_format=docstring_format, emit_default_doc=emit_default_doc, emit_original_whitespace=emit_original_whitespace, force_pk_id=force_pk_id, intermediate_repr=intermediate_repr, name='__table__', table_name=table_name or intermediate_repr['name'], word_wrap=word_wrap")]%string.
Proof. vm_compute. reflexivity. Qed.

(* ---- one column through the emitter and the parser (Model/SqlCol.v: param_to_sqlalchemy_column_calls with its argument /
   keyword helpers, and column_call_to_param; a Column(...) call is the record of its arguments; compared with the code on
   generated parameters each run).  [plain_doc d]: d has no "[PK]" / "[FK" in front, is not empty and does not end with ".".
   [keeps_typ t]: t is not the bare `dict` (JSON reads back as Optional[dict] -- see C05_column_refuted). *)
From CDD Require SqlCol SqlColProofs.

(* for EVERY such description and every type of the domain (int, float, str, bool, Literal of any members, Optional of those):
   name-less column -> Column(...) -> parameter is the identity *)
Theorem C05_column_roundtrip : forall t d, SqlColProofs.keeps_typ t = true -> SqlColProofs.plain_doc d = true ->
  SqlCol.parse_col (SqlCol.emit_col {| SqlCol.p_typ := t; SqlCol.p_doc := Some d; SqlCol.p_default := None |})
  = {| SqlCol.p_typ := t; SqlCol.p_doc := Some d; SqlCol.p_default := None |}.
Proof.
  intros t d Ht Hd. destruct (SqlColProofs.round_plain_doc t d None Hd) as [_ E]. rewrite E, (SqlColProofs.round_typ_keeps t Ht). reflexivity.
Qed.
Print Assumptions C05_column_roundtrip.

(* the primary-key marker becomes primary_key=True, the rest of the description the comment, and both come back *)
Theorem C05_column_pk_marker : forall t d, SqlColProofs.keeps_typ t = true -> SqlColProofs.head_ok d = true ->
  match last_opt d with Some c => negb (N.eqb c SqlCol.DOT) | None => false end = true ->
  let p := {| SqlCol.p_typ := t; SqlCol.p_doc := Some (s2l "[PK] " ++ d); SqlCol.p_default := None |} in
  SqlCol.c_pk (SqlCol.emit_col p) = true /\ SqlCol.c_comment (SqlCol.emit_col p) = Some d /\ SqlCol.parse_col (SqlCol.emit_col p) = p.
Proof.
  intros t d Ht Hh L. cbn zeta. change (s2l "[PK] " ++ d) with (s2l "[PK]" ++ SP :: d).
  rewrite SqlColProofs.emit_col_pk, (SqlColProofs.lstrip_sp_head d Hh), (SqlColProofs.comment_of_id d L).
  repeat split. exact (SqlColProofs.parse_col_key t None true d Ht).
Qed.
Print Assumptions C05_column_pk_marker.

(* the foreign-key marker "[FK(target)] " becomes ForeignKey("target"), the rest of the description the comment, and the marker is
   rebuilt in front of it on the way back: for EVERY target without a closing square bracket and every such description *)
From CDD Require SqlColFkProofs PyStrFacts.
Theorem C05_column_fk_marker : forall t f d, SqlColProofs.keeps_typ t = true -> SqlColFkProofs.target_ok f = true -> SqlColProofs.head_ok d = true ->
  match last_opt d with Some c => negb (N.eqb c SqlCol.DOT) | None => false end = true ->
  let p := {| SqlCol.p_typ := t; SqlCol.p_doc := Some (s2l "[FK(" ++ f ++ s2l ")] " ++ d); SqlCol.p_default := None |} in
  SqlCol.c_fk (SqlCol.emit_col p) = Some f /\ SqlCol.c_comment (SqlCol.emit_col p) = Some d /\ SqlCol.c_pk (SqlCol.emit_col p) = false
  /\ SqlCol.parse_col (SqlCol.emit_col p) = p.
Proof.
  intros t f d Ht Hf Hh L. cbn zeta. change (s2l "[FK(" ++ f ++ s2l ")] " ++ d) with (s2l "[FK(" ++ f ++ s2l ")]" ++ SP :: d).
  rewrite (SqlColProofs.emit_col_fk t f (SP :: d) None (proj1 (PyStrFacts.not_in_forallb SqlCol.RB f) Hf)).
  rewrite (SqlColProofs.lstrip_sp_head d Hh), (SqlColProofs.comment_of_id d L).
  repeat split. exact (SqlColProofs.parse_col_key t (Some f) false d Ht).
Qed.
Print Assumptions C05_column_fk_marker.

(* a non-None default on a non-Optional column: NOT NULL, default kept, the description comes back with a full stop *)
Theorem C05_column_default : forall b d v, b <> SqlCol.BDict -> SqlColProofs.plain_doc d = true -> SqlCol.is_none_default (SqlCol.DVal v) = false ->
  let p := {| SqlCol.p_typ := {| SqlCol.t_opt := false; SqlCol.t_base := b |}; SqlCol.p_doc := Some d; SqlCol.p_default := Some (SqlCol.DVal v) |} in
  SqlCol.c_nullable (SqlCol.emit_col p) = Some false
  /\ SqlCol.parse_col (SqlCol.emit_col p)
     = {| SqlCol.p_typ := {| SqlCol.t_opt := false; SqlCol.t_base := b |}; SqlCol.p_doc := Some (d ++ [SqlCol.DOT]); SqlCol.p_default := Some (SqlCol.DVal v) |}.
Proof.
  intros b d v Hb Hd Hv. cbn zeta. destruct (SqlColProofs.round_plain_doc {| SqlCol.t_opt := false; SqlCol.t_base := b |} d (Some (SqlCol.DVal v)) Hd) as [N E]. rewrite N, E.
  unfold SqlColProofs.round_typ, SqlColProofs.nullable_with. rewrite Hv. split; [reflexivity|]. destruct b; try reflexivity. contradiction.
Qed.

(* Optional[..] with the None default stays Optional (nullable=True) and keeps None *)
Theorem C05_column_optional_none : forall b d, SqlColProofs.plain_doc d = true ->
  let p := {| SqlCol.p_typ := {| SqlCol.t_opt := true; SqlCol.t_base := b |}; SqlCol.p_doc := Some d; SqlCol.p_default := Some SqlCol.DNoneStr |} in
  SqlCol.c_nullable (SqlCol.emit_col p) = Some true
  /\ SqlCol.parse_col (SqlCol.emit_col p)
     = {| SqlCol.p_typ := {| SqlCol.t_opt := true; SqlCol.t_base := b |}; SqlCol.p_doc := Some (d ++ [SqlCol.DOT]); SqlCol.p_default := Some SqlCol.DNoneStr |}.
Proof.
  intros b d Hd. cbn zeta. destruct (SqlColProofs.round_plain_doc {| SqlCol.t_opt := true; SqlCol.t_base := b |} d (Some SqlCol.DNoneStr) Hd) as [N E]. rewrite N, E.
  split; [reflexivity | destruct b; reflexivity].
Qed.

(* outside the stated domain, as facts about the faithful model: Optional with a non-None default comes back non-Optional; trailing
   full stops of a description are dropped; the bare dict comes back Optional[dict] *)
Theorem C05_column_refuted :
  SqlCol.p_typ (SqlCol.parse_col (SqlCol.emit_col {| SqlCol.p_typ := {| SqlCol.t_opt := true; SqlCol.t_base := SqlCol.BInt |}; SqlCol.p_doc := Some (s2l "n"); SqlCol.p_default := Some (SqlCol.DVal (s2l "5")) |}))
    = {| SqlCol.t_opt := false; SqlCol.t_base := SqlCol.BInt |}
  /\ SqlCol.p_doc (SqlCol.parse_col (SqlCol.emit_col {| SqlCol.p_typ := {| SqlCol.t_opt := false; SqlCol.t_base := SqlCol.BInt |}; SqlCol.p_doc := Some (s2l "the a.."); SqlCol.p_default := None |})) = Some (s2l "the a")
  /\ SqlCol.p_typ (SqlCol.parse_col (SqlCol.emit_col {| SqlCol.p_typ := {| SqlCol.t_opt := false; SqlCol.t_base := SqlCol.BDict |}; SqlCol.p_doc := Some (s2l "d"); SqlCol.p_default := None |})) = {| SqlCol.t_opt := true; SqlCol.t_base := SqlCol.BDict |}.
Proof. exact SqlColProofs.col_refuted. Qed.
