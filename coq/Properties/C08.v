(* C08 -- one conversion round reaches a fixpoint. *)
From CDD Require Import PyStr Norm NormProofs.

(* For EVERY parameter of the common domain (including the part where a round changes it: absent and None
   defaults, negative ints) and each of the five formats: whatever the first round returns, the second
   round returns the same, and so does every later one. *)
Theorem C08_idempotent : forall f p q, N f p = Some q -> N f q = Some q.
Proof. intros f p q H. pose proof (N_twice f p) as T. rewrite H in T. exact T. Qed.
Print Assumptions C08_idempotent.
Theorem C08_rounds : forall f p q, N f p = Some q -> forall n, rounds n f q = Some q.
Proof.
  intros f p q H n. induction n as [|n IH]; [reflexivity|]. cbn [rounds].
  rewrite (C08_idempotent f p q H). exact IH.
Qed.
Print Assumptions C08_rounds.

Example C08_nontrivial_round :
  N FDocstring (mkT false (IBase BInt), DInt (-3)) = Some (mkT false (IBase BInt), DFloat (s2l "-3.0"))
  /\ N FArgparse (mkT false (IBase BBool), DAbs) = Some (mkT true (IBase BBool), DAbs).
Proof. split; vm_compute; reflexivity. Qed.

(* The ReST docstring format at the level of the text itself (descriptions included): for every description of the
   domain of C01_rest_roundtrip, converting the emitted docstring once more (parse it, emit it again) writes the
   same text, and so does every later round. *)
From CDD Require Import RestDoc RestDocProofs.
Definition rest_round (t : str) : str := let p := parse_rest t in emit_rest true (p_doc p) (p_params p) (p_ret p).
Fixpoint rest_rounds (n : nat) (t : str) : str := match n with O => t | S k => rest_round (rest_rounds k t) end.
Theorem C08_rest_text_fixpoint : forall doc ps ret,
  clean doc = true -> forallb param_ok ps = true -> NoDup (map fst ps) -> ps <> [] -> ret_ok ret = true ->
  forall n, rest_rounds n (emit_rest true doc ps ret) = emit_rest true doc ps ret.
Proof.
  intros doc ps ret H1 H2 H3 H4 H5 n. induction n as [|n IH]; [reflexivity|]. cbn [rest_rounds]. rewrite IH.
  unfold rest_round. rewrite (rest_roundtrip doc ps ret H1 H2 H3 H5 (or_introl H4)). reflexivity.
Qed.
Print Assumptions C08_rest_text_fixpoint.

(* ---- the announcer is stripped and re-appended every round (formats with emit_default_doc): the second line equals the first ----
   For EVERY description d and default text t without the word "default", t kept whole by the scan and already free of code quotes
   and blanks at its ends: emit (set_default_doc), parse with the announcer stripped (extract_default), emit again -- the line
   written in round 2 is the line written in round 1 (the one change, the added full stop, happens in round 1 only). *)
From CDD Require ExtractDefault ExtractDefaultProofs DefaultDoc.
Theorem C08_announced_line_fixpoint : forall (strip : str -> str) (d t : str),
  ExtractDefaultProofs.has_kw d = false -> ExtractDefaultProofs.has_kw t = false -> ExtractDefault.scan_default t false = t ->
  ExtractDefaultProofs.strip3 t = t ->
  let line1 := DefaultDoc.set_default_doc strip d (Some t) true in
  let '(d1, t1) := ExtractDefault.extract_default_text line1 false in
  DefaultDoc.set_default_doc strip d1 t1 true = line1.
Proof.
  intros strip d t Fd Ft K S. cbn zeta. destruct (ExtractDefaultProofs.default_text_roundtrip strip d t Fd Ft K) as [E _]. rewrite E, S.
  rewrite !ExtractDefaultProofs.announced by (try apply ExtractDefaultProofs.dotted_free; exact Fd).
  unfold ExtractDefaultProofs.dotted at 1. rewrite ExtractDefaultProofs.dotted_stops. reflexivity.
Qed.
Print Assumptions C08_announced_line_fixpoint.

(* ---- quote / unquote (pure_utils; quote is Model/DefaultDoc.v, unquote Model/Quote.v, both compared with the code each run): the
   emitter writes a string default in quotes, the parser removes one pair.  For EVERY text that quote() wraps (not empty, not already
   wearing a matching pair of quotes) the pair cancels; a text that already wears quotes is left alone by quote and stripped by
   unquote, so ITS quotes are lost (C08_quote_refuted: the recorded drift of defaults such as '"q"'). *)
From CDD Require Quote QuoteProofs.
Theorem C08_unquote_quote : forall s, QuoteProofs.bare s = true -> Quote.unquote (DefaultDoc.quote s) = s.
Proof. intros s H. rewrite (QuoteProofs.quote_bare s H). apply QuoteProofs.unquote_wrapped. left. reflexivity. Qed.
Print Assumptions C08_unquote_quote.
Theorem C08_quote_refuted :
  DefaultDoc.quote (s2l "'q'") = s2l "'q'" /\ Quote.unquote (DefaultDoc.quote (s2l "'q'")) = s2l "q" /\ QuoteProofs.bare (s2l "'q'") = false.
Proof. exact QuoteProofs.quoted_text_loses_its_quotes. Qed.

(* ---- the class format at text level (Model/ClassFmt.v, compared with emit.class_ / parse.class_ each run): one round is already
   the fixpoint.  For EVERY one-line header and non-empty list of attributes of the domain: the class written from what was parsed
   back is the class that was written first, and parsing it again gives the same description. *)
From CDD Require ClassFmt ClassFmtProofs RestDocIndentProofs.
Theorem C08_class_text_fixpoint : forall doc ps,
  RestDocProofs.clean doc = true -> RestDocIndentProofs.one_line doc = true -> forallb ClassFmtProofs.cparam_ok ps = true ->
  NoDup (map fst ps) -> ps <> [] ->
  let r := ClassFmt.parse_class (ClassFmt.emit_class doc ps) in
  ClassFmt.emit_class (fst r) (snd r) = ClassFmt.emit_class doc ps
  /\ ClassFmt.parse_class (ClassFmt.emit_class (fst r) (snd r)) = r.
Proof.
  intros doc ps Hd H1 Hp Hn Hne. cbn zeta. rewrite (ClassFmtProofs.class_roundtrip doc ps Hd H1 Hp Hn Hne). cbn [fst snd].
  split; [reflexivity | apply ClassFmtProofs.class_roundtrip; assumption].
Qed.
Print Assumptions C08_class_text_fixpoint.

(* ---- one SQLAlchemy column (Model/SqlCol.v, compared with the column emitter / parser each run): for EVERY parameter whose
   description carries no key marker -- any type, any default, any number of full stops at the end of the description -- the second
   round (emit the column, read it back) changes nothing: all trailing full stops go in round 1, the one a default brings back is
   stripped and re-added every round. *)
From CDD Require SqlCol SqlColRoundProofs.
Theorem C08_column_round_idempotent : forall p, SqlColRoundProofs.no_marker (SqlColRoundProofs.doc_of p) = true ->
  SqlCol.parse_col (SqlCol.emit_col (SqlCol.parse_col (SqlCol.emit_col p))) = SqlCol.parse_col (SqlCol.emit_col p).
Proof.
  intros p H. fold (SqlColRoundProofs.round p). fold (SqlColRoundProofs.round (SqlColRoundProofs.round p)).
  rewrite (SqlColRoundProofs.round_no_marker p H).
  destruct (SqlColRoundProofs.round_doc_stable (SqlColRoundProofs.doc_of p) (SqlCol.p_default p) H) as [H' E].
  rewrite SqlColRoundProofs.round_no_marker by exact H'. cbn [SqlCol.p_typ SqlCol.p_doc SqlCol.p_default SqlColRoundProofs.doc_of].
  rewrite SqlColRoundProofs.round_typ_idem. f_equal. exact E.
Qed.
Print Assumptions C08_column_round_idempotent.
Example C08_column_round_example :
  let p := {| SqlCol.p_typ := {| SqlCol.t_opt := false; SqlCol.t_base := SqlCol.BStr |}; SqlCol.p_doc := Some (s2l "the unit, in m/s etc..."); SqlCol.p_default := None |} in
  SqlCol.parse_col (SqlCol.emit_col (SqlCol.parse_col (SqlCol.emit_col p))) = SqlCol.parse_col (SqlCol.emit_col p)
  /\ SqlCol.p_doc (SqlCol.parse_col (SqlCol.emit_col p)) = Some (s2l "the unit, in m/s etc").
Proof. exact SqlColRoundProofs.col_round_example. Qed.

(* ---- the Google and NumPy docstring formats at text level (Model/GoogleEmit.v, Model/NumpyEmit.v and the parse side of C01's
   whole-docstring theorems, each compared with the code each run): for EVERY clean description and every non-empty list of entries
   of the domain, writing what was parsed back gives the text that was written first. *)
From CDD Require GoogleLine GoogleScan GoogleEmit GoogleEmitProofs NumpyScan NumpyEmit NumpyEmitProofs StyleFixpointProofs.
Theorem C08_google_text_fixpoint : forall doc es,
  RestDocProofs.clean doc = true -> es <> [] -> forallb GoogleScanProofs.entry_ok1 es = true -> forallb GoogleEmitProofs.documented es = true ->
  match GoogleScan.google_docstring (GoogleEmit.emit_google doc es) with
  | (doc', GoogleLine.PList ps) => GoogleEmit.emit_google doc' (map StyleFixpointProofs.reembed ps) = GoogleEmit.emit_google doc es
  | _ => False
  end.
Proof.
  intros doc es Hd Hne H D. rewrite (GoogleEmitProofs.google_emit_parse_roundtrip doc es Hd Hne H D). f_equal. rewrite map_map.
  rewrite <- (map_id es) at 2. apply map_ext_in. intros e He. rewrite forallb_forall in H, D.
  exact (StyleFixpointProofs.reembed_read e (H e He) (D e He)).
Qed.
Print Assumptions C08_google_text_fixpoint.
Theorem C08_numpy_text_fixpoint : forall doc es,
  RestDocProofs.clean doc = true -> GoogleLineProofs.lacks NumpyScanProofs.DASH doc = true -> es <> [] ->
  forallb NumpyScanProofs.nentry_ok1 es = true -> forallb NumpyEmitProofs.ends_visible es = true ->
  let r := NumpyScan.numpy_docstring (NumpyEmit.emit_numpy doc (map NumpyEmitProofs.as_entry es)) in
  NumpyEmit.emit_numpy (fst r) (map StyleFixpointProofs.reembed_n (snd r)) = NumpyEmit.emit_numpy doc (map NumpyEmitProofs.as_entry es).
Proof.
  intros doc es Hd HD Hne H V. cbv zeta. rewrite (NumpyEmitProofs.numpy_emit_parse_roundtrip doc es Hd HD Hne H V). cbn [fst snd]. f_equal.
  rewrite map_map. apply map_ext_in. intros e He. rewrite forallb_forall in H. exact (StyleFixpointProofs.reembed_read_n e (H e He)).
Qed.
Print Assumptions C08_numpy_text_fixpoint.
