(* C02 -- class / pydantic / function / argparse emit -> parse round trip: the signature mechanism. *)
From CDD Require Import PyStr FuncSig FuncSigProofs.

(* For EVERY signature (any names, any defaults, len(defaults) <= len(args)): the parser's left-padding
   of the defaults list pairs each argument with exactly the default CPython gives it (tail alignment):
   a default can never "leak" onto the following or preceding parameter. *)
Theorem C02_defaults_alignment : forall (args : list str) (defaults : list str),
  (length defaults <= length args)%nat ->
  parse_pairs str str (args, defaults) = python_pairs str str (args, defaults).
Proof. exact (defaults_alignment str str). Qed.
Print Assumptions C02_defaults_alignment.

(* function emit -> parse, for every parameter list: same names in the same order, a present default is
   returned unchanged at the same position, an absent one is shown as None (the documented normalisation) *)
Theorem C02_function_roundtrip : forall (none_ : str) (ps : list (str * option str)),
  parse_pairs str str (emit_sig str str none_ ps)
  = map (fun p => (fst p, Some (match snd p with Some d => d | None => none_ end))) ps.
Proof. exact (function_roundtrip str str). Qed.
Print Assumptions C02_function_roundtrip.

Theorem C02_default_stays_on_its_parameter : forall (none_ : str) ps i n d,
  nth_error ps i = Some (n, Some d) ->
  nth_error (parse_pairs str str (emit_sig str str none_ ps)) i = Some (n, Some d).
Proof. exact (function_roundtrip_nth str str). Qed.

Theorem C02_class_roundtrip : forall (ps : list (str * option str)), parse_class str str (emit_class str str ps) = ps.
Proof. exact (class_roundtrip str str). Qed.

Example C02_alignment_example :
  parse_pairs str str ([s2l "a"; s2l "b"; s2l "c"], [s2l "1"; s2l "2"])
  = [(s2l "a", None); (s2l "b", Some (s2l "1")); (s2l "c", Some (s2l "2"))].
Proof. vm_compute. reflexivity. Qed.

(* ---- the class format as text: docstring + annotated assignments (Model/ClassFmt.v) ---------------------------------
   emit_class writes the description and one ":cvar name: doc" line per attribute into the class docstring (tab-indented,
   right-stripped: cdd/class_/emit.py + cdd/docstring/emit.py with purpose "class", indent_level 1) and one annotated
   assignment per attribute into the body; parse_class runs the ReST scanner and parser over the docstring and lets the
   body fill in typ and default.  For EVERY description and EVERY attribute list in the stated domain (one-line texts with
   no colon and no blank at either end, distinct identifier names, each attribute typed and documented, at least one
   attribute): every attribute comes back exactly once, under its own name, in its position, with its own description,
   type and default -- present and absent defaults alike (an absent one stays absent, a present one stays on its owner). *)
From CDD Require RestDoc ClassFmt ClassFmtProofs RestDocProofs RestDocIndentProofs.

Theorem C02_class_text_roundtrip : forall (doc : str) (ps : list (str * ClassFmt.cparam)),
  RestDocProofs.clean doc = true -> RestDocIndentProofs.one_line doc = true ->
  forallb ClassFmtProofs.cparam_ok ps = true -> NoDup (map fst ps) -> ps <> [] ->
  ClassFmt.parse_class (ClassFmt.emit_class doc ps) = (doc, ps).
Proof. exact ClassFmtProofs.class_roundtrip. Qed.
Print Assumptions C02_class_text_roundtrip.

(* the emitted class docstring is exactly: newline + tab, description, blank line, the :cvar lines, tab-indented *)
Theorem C02_class_docstring_canonical : forall (doc : str) (ps : list (str * ClassFmt.cparam)),
  RestDocProofs.clean doc = true -> RestDocIndentProofs.one_line doc = true ->
  forallb ClassFmtProofs.cparam_ok ps = true -> ps <> [] ->
  ClassFmt.class_docstring doc ps
  = ClassFmtProofs.crender ClassFmtProofs.C_HP [] ClassFmtProofs.C_HP ClassFmtProofs.C_HS doc (ClassFmtProofs.docs_of ps).
Proof. exact ClassFmtProofs.class_docstring_is_crender. Qed.
Print Assumptions C02_class_docstring_canonical.

(* the hypotheses are satisfiable, and what the theorem says of a concrete class (one default present, one absent) *)
Example C02_class_text_example :
  let doc := s2l "Acquire from the official tensorflow_datasets model zoo" in
  let ps := [(s2l "dataset_name", {| ClassFmt.cp_typ := Some (s2l "str"); ClassFmt.cp_doc := Some (s2l "name of dataset"); ClassFmt.cp_default := Some (s2l "'mnist'") |});
             (s2l "as_numpy", {| ClassFmt.cp_typ := Some (s2l "Optional[bool]"); ClassFmt.cp_doc := Some (s2l "Convert to numpy ndarrays"); ClassFmt.cp_default := None |})] in
  RestDocProofs.clean doc = true /\ RestDocIndentProofs.one_line doc = true /\ forallb ClassFmtProofs.cparam_ok ps = true
  /\ ClassFmt.class_docstring doc ps
     = [NL] ++ RestDoc.TAB ++ doc ++ [NL] ++ RestDoc.TAB ++ [NL] ++ RestDoc.TAB ++ s2l ":cvar dataset_name: name of dataset"
       ++ [NL] ++ RestDoc.TAB ++ s2l ":cvar as_numpy: Convert to numpy ndarrays"
  /\ ClassFmt.parse_class (ClassFmt.emit_class doc ps) = (doc, ps).
Proof. vm_compute. repeat split. Qed.

(* ---- the function format as text (Model/FuncFmt.v: docstring + signature; the parser = ReST scanner + parser, then the merge of
   the signature into the documented parameters, Model/Merge.v).  [ftext k doc es] is the canonical docstring text at indent level
   k with emit_separating_tab off (blank lines carry no tab).  For EVERY clean description and EVERY non-empty list of distinctly
   named, documented and typed parameters, with type_annotations on or off and at every indent level: parsing the canonical text
   together with the signature returns every parameter once, in order, with its own description, type and default -- an absent
   default reads back as None (the documented normalisation of the function format). *)
From CDD Require FuncFmt FuncFmtProofs.
Theorem C02_function_text_parse_canonical : forall (ta : bool) (k : nat) (doc : str) (ps : list (str * FuncFmt.fparam)),
  RestDocProofs.clean doc = true -> forallb FuncFmtProofs.fparam_ok ps = true -> NoDup (map fst ps) -> ps <> [] ->
  FuncFmt.parse_function {| FuncFmt.f_doc := FuncFmtProofs.ftext k doc (map (fun p => (fst p, FuncFmt.entry_of (negb ta) (snd p))) ps);
                            FuncFmt.f_args := FuncFmtProofs.sig_of ta ps |}
  = (doc, FuncFmtProofs.expected ps).
Proof. exact FuncFmtProofs.function_parse_canonical. Qed.
Print Assumptions C02_function_text_parse_canonical.

(* and the emitter (Model/RestDoc.v:emit_rest_indented_nt, a transcription of the tail of cdd/docstring/emit.py:docstring with
   emit_separating_tab off, compared with the code each run) writes exactly that canonical text, so for EVERY one-line clean
   description and EVERY non-empty list of distinctly named parameters with one-line descriptions and types:
   parse(emit(x)) = x up to the documented normalisation (an absent default reads back as None) *)
From CDD Require FuncEmitProofs.
Theorem C02_function_text_roundtrip : forall (ta : bool) (doc : str) (ps : list (str * FuncFmt.fparam)),
  RestDocProofs.clean doc = true -> RestDocIndentProofs.one_line doc = true ->
  forallb FuncFmtProofs.fparam_ok ps = true -> forallb FuncEmitProofs.fparam_1l ps = true -> NoDup (map fst ps) -> ps <> [] ->
  FuncFmt.parse_function (FuncFmt.emit_function ta doc ps) = (doc, FuncFmtProofs.expected ps).
Proof.
  intros ta doc ps Hd H1 Hp Hp1 Hnd Hne.
  pose proof (FuncFmtProofs.function_parse_canonical ta FuncFmt.INDENT doc ps Hd Hp Hnd Hne) as PC.
  rewrite <- (FuncEmitProofs.emit_function_doc ta doc ps Hd H1 Hp Hp1 Hne) in PC. exact PC.
Qed.
Print Assumptions C02_function_text_roundtrip.

Example C02_function_text_example :
  let doc := s2l "Acquire from the zoo" in
  let ps := [(s2l "dataset_name", {| FuncFmt.fp_typ := Some (s2l "str"); FuncFmt.fp_doc := Some (s2l "name of dataset"); FuncFmt.fp_default := Some (s2l "'mnist'") |});
             (s2l "as_numpy", {| FuncFmt.fp_typ := Some (s2l "Optional[bool]"); FuncFmt.fp_doc := Some (s2l "Convert to numpy ndarrays"); FuncFmt.fp_default := None |})] in
  forallb FuncFmtProofs.fparam_ok ps = true
  /\ FuncFmt.f_doc (FuncFmt.emit_function true doc ps) = FuncFmtProofs.ftext FuncFmt.INDENT doc (map (fun p => (fst p, FuncFmt.entry_of false (snd p))) ps)
  /\ FuncFmt.f_doc (FuncFmt.emit_function false doc ps) = FuncFmtProofs.ftext FuncFmt.INDENT doc (map (fun p => (fst p, FuncFmt.entry_of true (snd p))) ps)
  /\ FuncFmt.f_args (FuncFmt.emit_function true doc ps) = FuncFmtProofs.sig_of true ps
  /\ FuncFmt.parse_function (FuncFmt.emit_function true doc ps) = (doc, FuncFmtProofs.expected ps).
Proof. vm_compute. repeat split. Qed.

(* ---- reading an argparse function back: one add_argument(...) call (Model/ArgRead.v, a transcription of parse_out_param with
   _handle_value / _handle_keyword, compared with the code on generated calls each run).  For EVERY call that is read at all: a default
   that is written is the parameter's default -- 0, 0.0, False and '' included; the members of `choices` become a Literal in the order
   written; a plainly typed option is Optional exactly when it is not required.  (Members that are not strings under a type other
   than str make the reader raise: C02_argparse_int_choices_raise, the recorded behaviour.) *)
From CDD Require ArgRead ArgReadProofs.
Theorem C02_argparse_written_default_is_kept : forall c d r, ArgRead.a_default c = Some d -> ArgRead.parse_out_param c = Some r ->
  ArgRead.r_default r = Some (ArgRead.AVal d).
Proof.
  intros c d r H. unfold ArgRead.parse_out_param. rewrite H.
  destruct (match ArgRead.a_choices c with Some elts => ArgRead.handle_choices elts _ | None => Some _ end); [|discriminate].
  (* the equation is projected on the default first: injection on the whole record is slow *)
  destruct (ArgRead.a_help c); intro E; apply (f_equal (option_map ArgRead.r_default)) in E; injection E as <-; reflexivity.
Qed.
Print Assumptions C02_argparse_written_default_is_kept.
Theorem C02_argparse_choices_in_order : forall c elts, ArgRead.a_type c = None -> ArgRead.a_action c = None -> ArgRead.a_choices c = Some elts ->
  ArgRead.a_required c = true ->
  option_map ArgRead.r_typ (ArgRead.parse_out_param c) = Some (s2l "Literal[" ++ join (s2l ", ") (map ArgReadProofs.quoted elts) ++ s2l "]").
Proof.
  intros c elts Ht Ha Hc Hr. unfold ArgRead.parse_out_param. rewrite Ht, Ha, Hc, Hr.
  destruct (ArgRead.a_help c); destruct (ArgRead.a_default c); try reflexivity;
    destruct (ExtractDefault.extract_default_text _ true); reflexivity.
Qed.
Print Assumptions C02_argparse_choices_in_order.
Theorem C02_argparse_optional_iff_not_required : forall c t, ArgRead.a_type c = Some t -> ArgReadProofs.plain_typ t = true ->
  ArgRead.a_choices c = None -> ArgRead.a_action c = None ->
  option_map ArgRead.r_typ (ArgRead.parse_out_param c) = Some (if ArgRead.a_required c then t else s2l "Optional[" ++ t ++ s2l "]").
Proof.
  intros c t Ht Hp Hc Ha. unfold ArgReadProofs.plain_typ in Hp. apply andb_prop in Hp. destruct Hp as [P1 P2].
  apply negb_true_iff in P1. apply negb_true_iff in P2.
  unfold ArgRead.parse_out_param. rewrite Ht, Hc, Ha. unfold ArgRead.handle_value. rewrite P1.
  destruct (ArgRead.a_required c); cbn [negb andb]; rewrite ?P2;
    destruct (ArgRead.a_help c); destruct (ArgRead.a_default c); try reflexivity;
    destruct (ExtractDefault.extract_default_text _ true); reflexivity.
Qed.
Print Assumptions C02_argparse_optional_iff_not_required.
Example C02_argparse_int_choices_raise :
  ArgRead.parse_out_param {| ArgRead.a_name := s2l "n"; ArgRead.a_type := Some (s2l "int"); ArgRead.a_help := None; ArgRead.a_required := true;
                     ArgRead.a_default := None; ArgRead.a_action := None;
                     ArgRead.a_choices := Some [{| ArgRead.v_repr := s2l "2"; ArgRead.v_str := s2l "2"; ArgRead.v_empty := false; ArgRead.v_is_str := false |}] |} = None.
Proof. exact ArgReadProofs.int_choices_raise. Qed.
