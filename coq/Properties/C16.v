(* C16 -- the generated OpenAPI document is closed and matches the requested CRUD. *)
From Coq Require Import String.
From CDD Require Import PyStr OpenApi OpenApiProofs.

(* For EVERY list of (name, model, route, id, crud) entries -- any names, any routes, repeated names,
   colliding routes -- every $ref string anywhere in the document emitted by
   cdd.compound.openapi.emit.openapi points at a schema / request body defined in that document
   (the model schemas themselves carrying no $ref). *)
Theorem C16_closed_emit : forall ses entries,
  schemas_ref_free (run ses entries) ->
  forall r, In r (refs (openapi ses entries)) -> defined (run ses entries) r.
Proof. intros ses entries Hfree. apply inv_closed; [apply run_inv | exact Hfree]. Qed.
Print Assumptions C16_closed_emit.

(* exactly the requested operations: Create -> POST on the collection, Read -> GET and
   Delete -> DELETE on the item, nothing else, for every subset of CRUD letters *)
Theorem C16_crud_exact : forall ses e,
  crud_valid (e_crud e) = true ->
  map (fun kp => (fst kp, ops_of (snd kp))) (st_paths (run ses [e])) =
    (if has "C" (e_crud e) then [(e_route e, ["post"%string])] else [])
    ++ [(item_route (e_route e) (e_id e),
         (if has "R" (e_crud e) then ["get"%string] else []) ++ (if has "D" (e_crud e) then ["delete"%string] else []))].
Proof. intros ses e Hv. rewrite (single_entry_paths ses e Hv). destruct (has "C" (e_crud e)); reflexivity. Qed.
Print Assumptions C16_crud_exact.

(* the item path declares the parameter of its template *)
Theorem C16_path_params_declared : forall n id g d,
  exists rest, render_pitem (PItem n id g d) = JO ((L "parameters", JA [path_parameter n id]) :: rest)
  /\ exists rest2, path_parameter n id = JO ((L "name", JS id) :: (L "in", JS (L "path")) :: rest2).
Proof. intros n id g d. eexists. split; [reflexivity|]. eexists. reflexivity. Qed.

(* openapi_bulk derives the component key from the table name with .replace("_tbl","",1).title():
   the statement "the key is the name the routes refer to" is FALSE of the faithful model *)
Theorem C16_bulk_key_refuted : exists name, bulk_component_key name <> name.
Proof. exists (s2l "UserProfile"). vm_compute. discriminate. Qed.
Example C16_bulk_key_ok_example : bulk_component_key (s2l "Foo") = s2l "Foo" /\ bulk_component_key (s2l "foo_tbl") = s2l "Foo".
Proof. split; vm_compute; reflexivity. Qed.

Example C16_closed_nonvacuous :
  refs (openapi [] [mkEntry (s2l "Foo") [] (s2l "/api/foo") (s2l "id") (s2l "CRD")])
  = [s2l "#/components/schemas/Foo"; s2l "#/components/requestBodies/FooBody"; s2l "#/components/schemas/Foo";
     s2l "#/components/schemas/ServerError"; s2l "#/components/schemas/Foo"; s2l "#/components/schemas/ServerError"].
Proof. vm_compute. reflexivity. Qed.

(* ---- reading the routes back: the entity names of a route's yml block (Model/Entities.v, a transcription of
   openapi/utils/parse_utils.py:extract_entities compared with the code on generated texts each run).  For EVERY text made of
   words without blanks or backticks, each followed by a whitespace character of any kind (a space, a line break, ...), some of them written between ``` fences: the entities are exactly the fenced
   words, in order -- whatever characters the names are made of (digits and underscores included).  The operation is about the last
   entity that is not "ServerError" (pick_entity). *)
From CDD Require Entities EntitiesProofs.
Theorem C16_entities_are_the_fenced_words : forall (ts : list EntitiesProofs.spaced) last_,
  forallb EntitiesProofs.spaced_ok ts = true -> EntitiesProofs.token_ok last_ = true ->
  Entities.extract_entities (concat (map EntitiesProofs.render_spaced ts) ++ EntitiesProofs.render last_)
  = EntitiesProofs.entities_of (map fst ts ++ [last_]).
Proof.
  intros ts last_ H Hl. unfold Entities.extract_entities. rewrite fold_left_app. change Entities.einit with (EntitiesProofs.clean_state []).
  rewrite (EntitiesProofs.run_tokens ts [] H), (EntitiesProofs.run_token last_ _ Hl), (proj1 (EntitiesProofs.token_closed last_ _ Hl)).
  symmetry. apply EntitiesProofs.entities_of_app.
Qed.
Print Assumptions C16_entities_are_the_fenced_words.
Example C16_entities_example :
  Entities.extract_entities (s2l "responses:" ++ [NL] ++ s2l "  '200':" ++ [NL] ++ s2l "    description: A `Config` object." ++ [NL] ++ s2l "    $ref: ```Config```" ++ [NL]
                    ++ s2l "  '400':" ++ [NL] ++ s2l "    $ref: ```ServerError```")
  = [s2l "Config"; s2l "ServerError"]
  /\ Entities.pick_entity [s2l "Config"; s2l "ServerError"] = Some (s2l "Config")
  /\ Entities.pick_entity [s2l "ServerError"] = None.
Proof. exact EntitiesProofs.entities_example. Qed.
(* outside the domain: a character glued to the closing fence becomes an entity of its own *)
Example C16_entities_refuted : Entities.extract_entities (s2l "```Config```s") = [s2l "Config"; s2l "s"].
Proof. exact EntitiesProofs.entities_refuted. Qed.
