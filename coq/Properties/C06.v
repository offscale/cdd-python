(* C06 -- the emitted JSON-schema is self-consistent and round-trips (property level). *)
From CDD Require Import PyStr JsonSchema JsonSchemaProofs.

(* a property is listed as required exactly when its type is not Optional -- for every parameter list *)
Theorem C06_required_iff : forall ps n,
  In n (required_names ps) <-> exists p, In (n, p) ps /\ is_optional (p_typ p) = false.
Proof. exact required_iff. Qed.
Print Assumptions C06_required_iff.

(* emit -> parse gives back the same type string with Literal members sorted (compared as a set:
   C06_sorted_same_members), the description and the default, for every parameter of the domain
   (base types, Literal[str,..] with members over letters/digits/_-. and space, Optional[..] of those) *)
Theorem C06_roundtrip : forall ps n p,
  NoDup (map fst ps) -> In (n, p) ps -> typ_ok (p_typ p) = true ->
  parse_prop n (fst (emit_prop p)) (required_names ps) = Some (expected p).
Proof. exact roundtrip. Qed.
Print Assumptions C06_roundtrip.
Theorem C06_sorted_same_members : forall m ms, In m (sort_strs ms) <-> In m ms.
Proof. exact in_sort_strs. Qed.

(* every emitted default validates against its own property schema *)
Theorem C06_default_validates : forall p d,
  typ_ok (p_typ p) = true -> d <> DNone -> default_well_typed (p_typ p) d = true ->
  default_validates (fst (emit_prop p)) d = true.
Proof.
  intros p d Hok Hnn Hw. rewrite emit_prop_eta.
  apply default_validates_inner; [apply typ_ok_inner, Hok | exact Hnn | apply well_typed_strip; assumption].
Qed.
Print Assumptions C06_default_validates.

(* the pattern accepts every member ... *)
Theorem C06_pattern_accepts_members : forall ms m,
  negb (Nat.eqb (length ms) 0) && forallb member_ok ms = true -> In m ms ->
  pattern_accepts (join PIPE (sort_strs ms)) m = true.
Proof. exact pattern_accepts_members. Qed.
(* ... but NOT exactly the members: the pattern is an unanchored alternation (search semantics) *)
Theorem C06_pattern_exact_refuted : exists ms text,
  negb (Nat.eqb (length ms) 0) && forallb member_ok ms = true /\
  pattern_accepts (join PIPE (sort_strs ms)) text = true /\ ~ In text ms.
Proof.
  exists [s2l "np"; s2l "tf"], (s2l "npx"). split; [vm_compute; reflexivity|]. split; [vm_compute; reflexivity|].
  intros [H|[H|[]]]; discriminate.
Qed.

Example C06_example :
  fst (emit_prop (mkParam (TOpt (TLit [s2l "tf"; s2l "np"])) (Some (s2l "backend")) (Some (DStr (s2l "np")))))
  = mkProp (s2l "string") (Some (s2l "backend")) (Some (s2l "np|tf")) (Some (DStr (s2l "np"))).
Proof. vm_compute. reflexivity. Qed.
