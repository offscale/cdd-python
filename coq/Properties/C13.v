(* C13 -- sync_properties updates exactly the selected property (the output-side rewrite). *)
From CDD Require Import PyStr Rewrite RewriteProofs.

(* For EVERY module, search path and replacement: the rewritten module has the same definitions and
   statements in the same order, every function keeps its number of positional parameters, keyword-only
   parameters and defaults (alignment), and every statement that is not an attribute assignment is
   untouched. *)
Theorem C13_shape_preserved : forall search r m m' b,
  rewrite search r m = Some (m', b) -> map shape m' = map shape m.
Proof. intros search r m m' b. unfold rewrite. apply visit_shape. Qed.
Print Assumptions C13_shape_preserved.

(* inside the function that is hit, exactly ONE parameter is replaced, in place *)
Theorem C13_one_parameter : forall loc search new args args' b,
  replace_arg loc search new args = (args', b) ->
  (b = false /\ args' = args) \/
  (b = true /\ exists pre a post, args = pre ++ a :: post /\ args' = pre ++ new :: post /\
                                   strs_eqb (loc ++ [a_name a]) search = true).
Proof. exact replace_arg_spec. Qed.
Print Assumptions C13_one_parameter.

Theorem C13_alignment : forall search r loc args kwonly defaults a' k' d' b,
  visit_func search r loc args kwonly defaults = (a', k', d', b) ->
  length a' = length args /\ length k' = length kwonly /\ length d' = length defaults.
Proof. exact visit_func_alignment. Qed.

(* every default value is unchanged -- PROVIDED the replacement is not a class attribute with a value whose
   name is also the name of a positional parameter of the function ... *)
Theorem C13_defaults_unchanged_partial : forall search r loc args kwonly defaults a' k' d' b,
  visit_func search r loc args kwonly defaults = (a', k', d', b) ->
  match r with RAnn t _ (Some _) => idx_of t args (start_idx args) = None | _ => True end ->
  d' = defaults.
Proof.
  intros search r loc args kwonly defaults a' k' d' b H Hr.
  destruct (visit_func_spec _ _ _ _ _ _ _ _ _ _ H) as (_ & _ & [E|(t & an & v & idx & -> & Hi & _)]); [exact E|].
  rewrite Hr in Hi. discriminate.
Qed.
Print Assumptions C13_defaults_unchanged_partial.

(* ... otherwise the faithful model overwrites a default that belongs to ANOTHER parameter (the index of the
   argument is used as an index into `defaults`, which is aligned to the tail):
   In.a = 5 synced onto f.a of  def f(x, a='why', z=0.0)  turns z's default into 5 *)
Theorem C13_defaults_refuted :
  visit_func [s2l "f"; s2l "a"] (RAnn (s2l "a") (s2l "int") (Some (s2l "5"))) [s2l "f"]
             [mkArg (s2l "x") None; mkArg (s2l "a") None; mkArg (s2l "z") None] [] [s2l "'why'"; s2l "0.0"]
  = ([mkArg (s2l "x") None; mkArg (s2l "a") (Some (s2l "int")); mkArg (s2l "z") None], [], [s2l "'why'"; s2l "5"], true).
Proof. vm_compute. reflexivity. Qed.

(* ---- the lookup of a dotted path (find_in_ast after annotate_ancestry; Model/FindAst.v is a transcription of its two nested loops
   with their shared state, compared with the code by position on generated modules each run) --------------------------------
   [inert search parent q cs x]: the sibling x is not the node searched for, is not an annotated assignment or class called like
   the current query q, and -- if it is a function -- nothing is left to pop (cs = []) and no positional parameter is called q. *)
From CDD Require FindAst FindAstProofs.

(* a class attribute C.a: found, at its position, for EVERY module in which only inert siblings precede the class and the attribute *)
Theorem C13_lookup_class_attribute : forall C a pre body post bpre y bpost,
  forallb (FindAstProofs.inert [C; a] [] C [a]) pre = true -> str_eqb C a = false ->
  body = bpre ++ y :: bpost -> forallb (FindAstProofs.inert [C; a] [C] a []) bpre = true -> FindAst.node_loc [C] y = Some [C; a] ->
  FindAst.find_in_ast [C; a] (pre ++ NClass C body :: post) = FindAst.FNode [length pre; length bpre].
Proof. intros C a pre body post bpre y bpost Hp Hne ->. apply FindAstProofs.find_attr; assumption. Qed.
Print Assumptions C13_lookup_class_attribute.

(* a positional parameter f.p of a top-level function, when only inert siblings precede f *)
Theorem C13_lookup_parameter : forall f p pre args kw dfl bid post k,
  forallb (FindAstProofs.inert [f; p] [] f [p]) pre = true -> FindAst.find_arg p args O = Some k ->
  FindAst.find_in_ast [f; p] (pre ++ NFunc f args kw dfl bid :: post) = FindAst.FArg [length pre] k.
Proof. intros f p pre args kw dfl bid post k. apply FindAstProofs.find_param. Qed.
Print Assumptions C13_lookup_parameter.

(* what the conditions exclude -- the recorded findings, as facts about the faithful model: an earlier function with a parameter of
   the same name wins (the function name is never compared); a function before the class consumes the attribute name and the
   class is never entered (None -> sync_property's assert); keyword-only parameters are never found; a path through a parameter
   raises *)
Theorem C13_lookup_refuted :
  FindAst.find_in_ast [s2l "f"; s2l "p"] [NFunc (s2l "g") [FindAstProofs.A "p"] [] [] 1; NFunc (s2l "f") [FindAstProofs.A "x"; FindAstProofs.A "p"] [] [] 2]
    = FindAst.FArg [0%nat] 0
  /\ FindAst.find_in_ast [s2l "C"; s2l "a"] [NFunc (s2l "g") [FindAstProofs.A "x"] [] [] 1; NClass (s2l "C") [NAnn (s2l "a") (s2l "int") None]] = FindAst.FNone
  /\ FindAst.find_in_ast [s2l "f"; s2l "k"] [NFunc (s2l "f") [FindAstProofs.A "x"] [FindAstProofs.A "k"] [] 1] = FindAst.FNone
  /\ FindAst.find_in_ast [s2l "f"; s2l "x"; s2l "y"] [NFunc (s2l "f") [FindAstProofs.A "x"] [] [] 1] = FindAst.FErr.
Proof.
  exact (conj FindAstProofs.earlier_function_wins (conj FindAstProofs.function_before_class
          (conj FindAstProofs.kwonly_not_found FindAstProofs.path_through_parameter_raises))).
Qed.

Example C13_lookup_examples :
  let m := [NOther 1; NAssign (s2l "K") (s2l "1");
            NClass (s2l "C") [NOther 2; NAnn (s2l "a") (s2l "int") (Some (s2l "5")); NFunc (s2l "run") [FindAstProofs.A "self"; FindAstProofs.A "b"] [] [] 3];
            NFunc (s2l "f") [FindAstProofs.A "x"; FindAstProofs.A "p"] [] [s2l "1"] 4] in
  FindAst.find_in_ast [s2l "C"; s2l "a"] m = FindAst.FNode [2%nat; 1%nat] /\ FindAst.find_in_ast [s2l "f"; s2l "p"] m = FindAst.FArg [3%nat] 1
  /\ forallb (FindAstProofs.inert [s2l "C"; s2l "a"] [] (s2l "C") [s2l "a"]) (firstn 2 m) = true
  /\ forallb (FindAstProofs.inert [s2l "f"; s2l "p"] [] (s2l "f") [s2l "p"]) (firstn 3 m) = true.
Proof. vm_compute. repeat split. Qed.

(* ---- the members of the Literal written by --input-eval go through ast_utils.set_value (Model/SetValue.v, compared with the code
   each run): for EVERY text of at most two characters, and every text that does not wear a matching pair of quotes, the member
   written is the member evaluated; the function differs from pure_utils.unquote exactly on '' and "" (which it keeps).  A member
   that is itself written in quotes loses them (C13_eval_member_refuted). *)
From Coq Require Import Lia.
From CDD Require Quote SetValue SetValueProofs.
Theorem C13_eval_member_kept : forall s, (length s <= 2)%nat \/ SetValue.wears_quotes s = false -> SetValue.set_value_text s = s.
Proof.
  intros s [H|H]; unfold SetValue.set_value_text.
  - rewrite (proj2 (Nat.ltb_ge 2 _) H). reflexivity.
  - rewrite H, andb_false_r. reflexivity.
Qed.
Print Assumptions C13_eval_member_kept.
Theorem C13_eval_member_vs_unquote : forall s, length s <> 2%nat -> SetValue.set_value_text s = Quote.unquote s.
Proof.
  intros s H. unfold SetValue.set_value_text, Quote.unquote, SetValue.wears_quotes.
  destruct (Nat.ltb_spec 2 (length s)) as [L|L].
  - rewrite (proj2 (Nat.ltb_lt 1 _)) by lia. reflexivity.
  - rewrite (proj2 (Nat.ltb_ge 1 _)) by lia. reflexivity.
Qed.
Print Assumptions C13_eval_member_vs_unquote.
Example C13_eval_member_examples :
  SetValue.set_value_text (s2l "''") = s2l "''" /\ SetValue.set_value_text [DefaultDoc.DQ; DefaultDoc.DQ] = [DefaultDoc.DQ; DefaultDoc.DQ]
  /\ SetValue.set_value_text (s2l "'") = s2l "'" /\ SetValue.set_value_text (s2l "NULL") = s2l "NULL" /\ Quote.unquote (s2l "''") = [].
Proof. exact SetValueProofs.set_value_examples. Qed.
Example C13_eval_member_refuted : SetValue.set_value_text (s2l "'ab'") = s2l "ab" /\ SetValue.wears_quotes (s2l "'ab'") = true.
Proof. exact SetValueProofs.set_value_refuted. Qed.
