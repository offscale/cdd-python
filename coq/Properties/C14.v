(* C14 -- every parser returns a well-formed interface description (the mechanisms that make it so). *)
From CDD Require Import PyStr PyStrFacts Merge MergeProofs NameSan NameSanProofs.

(* for EVERY parameter name, the sanitised name has no leading asterisk *)
Theorem C14_name_sanitised : forall name, no_leading_star (sanitise_name name) = true.
Proof. exact sanitise_no_leading_star. Qed.
Print Assumptions C14_name_sanitised.

(* merging the signature's parameters into the documented ones (any enumeration of the key
   intersection): no name is duplicated, and every signature parameter appears exactly once *)
Theorem C14_merge_nodup : forall enum (other t : list (str * cparam)),
  NoDup (names str cparam t) -> NoDup (names str cparam (cmerge enum other t)).
Proof. intros. apply merge_nodup; [exact str_eqb_eq | assumption]. Qed.
Print Assumptions C14_merge_nodup.

Theorem C14_signature_once : forall enum (other t : list (str * cparam)) n
  (eq_dec : forall a b : str, {a = b} + {a <> b}),
  NoDup (names str cparam t) -> In n (names str cparam other) ->
  count_occ eq_dec (names str cparam (cmerge enum other t)) n = 1%nat.
Proof. intros. apply merge_signature_once; [exact str_eqb_eq | assumption | assumption]. Qed.
Print Assumptions C14_signature_once.

Example C14_examples :
  sanitise_name (s2l "**kw") = s2l "kw" /\ sanitise_name (s2l "*args") = s2l "args" /\
  sanitise_name (s2l "**kwargs") = s2l "kwargs" /\ sanitise_name (s2l "plain") = s2l "plain".
Proof. repeat split. Qed.

(* ---- the ReST docstring parser (Model/RestDoc.v: _scan_phase_rest + _parse_phase_rest with the name handling of
   _set_name_and_type), for EVERY input text -- no well-formedness hypothesis: the parameter names it returns are pairwise
   distinct and none starts with an asterisk; the return entry is at most one by construction (an option). *)
From CDD Require RestDoc RestDocShapeProofs.
Theorem C14_rest_names_once_and_star_free : forall (doc : str),
  NoDup (map fst (RestDoc.p_params (RestDoc.parse_rest doc)))
  /\ Forall (fun n => startswith [STAR] n = false) (map fst (RestDoc.p_params (RestDoc.parse_rest doc))).
Proof.
  intro doc. unfold RestDoc.parse_rest. cbn [RestDoc.p_params]. apply RestDocShapeProofs.flush_ok, RestDocShapeProofs.fold_inv.
  split; [split; constructor | exact I].
Qed.
Print Assumptions C14_rest_names_once_and_star_free.

(* the parser's name handling is the sanitiser of C14_name_sanitised *)
Theorem C14_rest_parser_sanitises : forall n, RestDoc.norm_name n = sanitise_name n.
Proof. exact RestDocShapeProofs.norm_name_sanitise. Qed.

Example C14_rest_names_example :
  map fst (RestDoc.p_params (RestDoc.parse_rest (s2l ":param x: a :param **kw: b :param x: c :param *args: d :type kw: ```dict```")))
  = [s2l "x"; s2l "kw"; s2l "args"].
Proof. vm_compute. reflexivity. Qed.

(* ---- the Google and NumPy unit readers (Model/GoogleLine.v, Model/NumpyLine.v, compared with the code through parse_docstring each run
   by C01's check): for EVERY line / unit, a name that is returned carries no blank at either end. *)
From CDD Require GoogleLine GoogleLineProofs NumpyLine UnitNameProofs.
Theorem C14_google_numpy_names_stripped :
  (forall l n t d, GoogleLine.parse_google_unit l = GoogleLine.UOk n t d -> UnitNameProofs.stripped n)
  /\ (forall u n t d, NumpyLine.parse_numpy_unit u = NumpyLine.NEntry n t d -> UnitNameProofs.stripped n).
Proof.
  split.
  - intros l n t d H. destruct (GoogleLineProofs.parse_google_unit_ok l n t d H) as [_ [_ [name0 [_ [-> _]]]]].
    apply UnitNameProofs.strip_is_stripped.
  - intros u n t d. unfold NumpyLine.parse_numpy_unit. destruct u as [|first rest]; [discriminate|].
    destruct (match GoogleLine.break_at _ first with Some _ => _ | None => _ end) as [[|c name] [|c' typ]]; [discriminate.. | |].
    all: intro H; injection H as <- _ _; apply UnitNameProofs.strip_is_stripped.
Qed.
Print Assumptions C14_google_numpy_names_stripped.
