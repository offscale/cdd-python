(* C04 -- emitted code runs and exposes the described interface (the mechanisms). *)
From CDD Require Import PyStr FuncSig FuncSigProofs Norm Exec ExecProofs.

(* inspect.signature of the emitted function, for EVERY parameter list: the described names in the described
   order, each with its described default (None where the description has none) *)
Theorem C04_function_signature : forall none_ ps,
  signature_of none_ ps = map (fun p => (fst p, Some (match snd p with Some d => d | None => none_ end))) ps.
Proof.
  intros none_ ps. unfold signature_of. rewrite <- (function_roundtrip str str none_ ps).
  unfold emit_sig. symmetry. apply defaults_alignment. rewrite !map_length. apply le_n.
Qed.
Print Assumptions C04_function_signature.

(* argparse: if every parameter is Optional, parse_args([]) yields the described defaults ... *)
Theorem C04_argparse_defaults_partial : forall ps : list (str * cparam),
  forallb (fun np => t_opt (fst (snd np))) ps = true ->
  parse_args_empty (map (fun np => (fst np, argparse_action (snd np))) ps)
  = Some (map (fun np => (fst np, described_default (snd (snd np)))) ps).
Proof.
  intros ps H. unfold parse_args_empty. destruct (existsb _ (map _ ps)) eqn:E.
  - apply existsb_exists in E as [na [Hin Hr]]. apply in_map_iff in Hin as [np [<- Hin]]. rewrite forallb_forall in H.
    cbn [snd] in Hr. rewrite optional_not_required in Hr by apply H, Hin. discriminate.
  - f_equal. rewrite map_map. apply map_ext. intro np. cbn [fst snd]. rewrite action_default. reflexivity.
Qed.
Print Assumptions C04_argparse_defaults_partial.

(* ... but NOT in general: a non-Optional parameter WITH a default is registered required=True, so parsing no
   arguments is an error instead of yielding the default (faithful model; the live parser agrees) *)
Theorem C04_argparse_refuted_required :
  parse_args_empty [(s2l "p", argparse_action (mkT false (IBase BInt), DInt 5))] = None.
Proof. vm_compute. reflexivity. Qed.

Example C04_signature_example :
  signature_of (s2l "None") [(s2l "a", None); (s2l "b", Some (s2l "5"))]
  = [(s2l "a", Some (s2l "None")); (s2l "b", Some (s2l "5"))].
Proof. vm_compute. reflexivity. Qed.

(* ---- the class emitter (Model/ClassFmt.v, compared with cdd.class_.emit / cdd.pydantic.emit on generated classes each run): for
   EVERY description the body of the emitted class has exactly one annotated assignment per typed attribute, in order, with the
   described annotation and the described default -- and no value where none is described. *)
From CDD Require ClassFmt ClassBodyProofs.
Theorem C04_class_body_carries : forall doc ps,
  ClassFmt.k_body (ClassFmt.emit_class doc ps) = map ClassBodyProofs.item_of (filter ClassBodyProofs.typed ps).
Proof. exact ClassBodyProofs.class_body_carries. Qed.
Print Assumptions C04_class_body_carries.
Example C04_class_body_example :
  ClassFmt.k_body (ClassFmt.emit_class (s2l "Config")
     [(s2l "size", {| ClassFmt.cp_typ := Some (s2l "int"); ClassFmt.cp_doc := Some (s2l "how big"); ClassFmt.cp_default := Some (s2l "5") |});
      (s2l "label", {| ClassFmt.cp_typ := Some (s2l "Optional[str]"); ClassFmt.cp_doc := None; ClassFmt.cp_default := None |})])
  = [{| ClassFmt.b_name := s2l "size"; ClassFmt.b_typ := s2l "int"; ClassFmt.b_value := Some (s2l "5") |};
     {| ClassFmt.b_name := s2l "label"; ClassFmt.b_typ := s2l "Optional[str]"; ClassFmt.b_value := None |}].
Proof. exact ClassBodyProofs.class_body_example. Qed.
