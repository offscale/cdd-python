(* C07 -- doctrans changes only docstrings and annotations, never the program. *)
From Coq Require Import Lia.
From CDD Require Import PyStr Cst CstProofs Doctrans DoctransProofs DoctransOrder.
From CDD Require PyStrFacts.

(* The write-back is "".join(node.value for node in cst_list) after doctransify_cst replaced the text of some nodes
   in place.  For EVERY source text and EVERY set of replacements: the node count is kept and each node that was not
   replaced is written back byte for byte ... *)
Theorem C07_cst_untouched : forall (src : str) (repl : list (nat * str)),
  let nodes := map n_value (cst_parse src) in
  length (apply_repl repl nodes) = length nodes /\
  forall j, ~ In j (map fst repl) -> nth_error (apply_repl repl nodes) j = nth_error nodes j.
Proof. intros src repl nodes. split; [apply apply_repl_length | intros j H; apply apply_repl_untouched; exact H]. Qed.
Print Assumptions C07_cst_untouched.

(* ... with no replacement the file text is reproduced exactly (C09 losslessness) ... *)
Theorem C07_nothing_replaced_is_identity : forall src : str, concat (apply_repl [] (map n_value (cst_parse src))) = src.
Proof. exact cst_parse_lossless. Qed.
Print Assumptions C07_nothing_replaced_is_identity.

(* ... and with one replaced node every byte before it and every byte after it is the original one. *)
Theorem C07_one_node_replaced : forall (src : str) (i : nat) (v : str),
  let nodes := map n_value (cst_parse src) in
  (i < length nodes)%nat ->
  concat (apply_repl [(i, v)] nodes) = concat (firstn i nodes) ++ v ++ concat (skipn (S i) nodes)
  /\ concat (firstn i nodes) ++ concat (skipn i nodes) = src.
Proof.
  intros src i v nodes H. split; [exact (set_nth_concat i v nodes H)|].
  rewrite <- concat_app, firstn_skipn. apply cst_parse_lossless.
Qed.
Print Assumptions C07_one_node_replaced.

(* The replaced text of a function header (maybe_replace_function_args): whatever the header, everything up to the
   opening parenthesis and from the closing one on is kept, and what lies between is ONLY the names and annotations
   of the positional parameters ... *)
Theorem C07_header_reprint_shape : forall value new_args,
  exists pre suf mid, header_reprint value new_args = pre ++ mid ++ suf /\ mid = join (s2l ", ") (map render_arg new_args).
Proof. intros value new_args. unfold header_reprint. do 3 eexists. split; reflexivity. Qed.
Print Assumptions C07_header_reprint_shape.

(* ... so the full property is FALSE of the faithful model whenever a re-printed header had a default value, *args,
   keyword-only parameters or **kwargs: the program changes.  (Known finding on the pinned tree.) *)
Theorem C07_header_reprint_refuted :
  header_reprint (s2l "def f(a=1, *rest, flag=False, **kw) -> int:") [(s2l "a", Some (s2l "int"))]
  = s2l "def f(a: int) -> int:".
Proof. vm_compute. reflexivity. Qed.

Example C07_header_reprint_examples :
  header_reprint (s2l "def f(a, b):") [(s2l "a", Some (s2l "int")); (s2l "b", None)] = s2l "def f(a: int, b):"
  /\ header_reprint (s2l "@lru_cache(maxsize=None)
    async def cache(self, key: str) -> Dict[str, int]:") [(s2l "self", None); (s2l "key", None)]
     = s2l "@lru_cache(maxsize=None)
    async def cache(self, key) -> Dict[str, int]:".
Proof. split; vm_compute; reflexivity. Qed.

(* The other header edit, maybe_replace_function_return_type.  Removing the annotation keeps a prefix of the header and ends it
   with one colon (whatever followed the last "->", a trailing comment included, is dropped); adding one to a header that
   ends with its colon inserts " -> type" in front of that colon and touches nothing else. *)
Theorem C07_return_removed_shape : forall s, exists p t, remove_return_typ s = p ++ s2l ":" /\ s = p ++ t.
Proof.
  intro s. unfold remove_return_typ. set (k := rfind (s2l "->") s).
  destruct (PyStrFacts.rdropwhile_prefix is_space (slice_to s k)) as [t E]. rewrite <- PyStrFacts.rstrip_rdropwhile in E.
  exists (rstrip (slice_to s k)), (t ++ slice_from s k). split; [reflexivity|].
  rewrite app_assoc, <- E. symmetry. apply PyStrFacts.slice_to_from.
Qed.
Print Assumptions C07_return_removed_shape.
Theorem C07_return_added : forall h rt, add_return_typ (h ++ s2l ":") rt = h ++ s2l " -> " ++ rt ++ s2l ":".
Proof. intros h rt. unfold add_return_typ. rewrite rpartition_last, app_nil_r. reflexivity. Qed.
Print Assumptions C07_return_added.
Example C07_return_examples :
  retype_header (s2l "def f(a, b=1) -> int:") (Some (s2l "int")) None = Some (s2l "def f(a, b=1):")
  /\ retype_header (s2l "def f(a, b=1):") None (Some (s2l "str")) = Some (s2l "def f(a, b=1) -> str:")
  /\ retype_header (s2l "    async def g(x: int) -> List[int]:") (Some (s2l "List[int]")) (Some (s2l "bool")) = Some (s2l "    async def g(x: int) -> bool:")
  /\ retype_header (s2l "def f(a) -> int:  # why") (Some (s2l "int")) None = Some (s2l "def f(a):").
Proof. repeat split. Qed.

(* The docstring edit (maybe_replace_doc_str_in_function_or_class) inserts, deletes or replaces ONE node, the one right after the
   def / class header at index i: the header, everything before it, and everything from the second node after it on are
   written back byte for byte, whatever the edit. *)
Theorem C07_doc_edit_outside : forall e i (l : list str),
  exists mid k, (S i <= k <= S (S i))%nat /\ concat (apply_edit e i l) = concat (firstn (S i) l) ++ mid ++ concat (skipn k l).
Proof.
  intros e i l. destruct e as [|v| |v]; cbn [apply_edit].
  - exists [], (S i). split; [lia|]. cbn [app]. rewrite <- (firstn_skipn (S i) l) at 1. apply concat_app.
  - exists v, (S i). split; [lia|]. rewrite concat_app. reflexivity.
  - exists [], (S (S i)). split; [lia|]. rewrite concat_app. reflexivity.
  - exists v, (S (S i)). split; [lia|]. rewrite concat_app. reflexivity.
Qed.
Print Assumptions C07_doc_edit_outside.
(* the new node is a triple-quoted string on lines of its own, its quotes indented like the node it is placed in front of *)
Theorem C07_new_docstring_node_shape : forall after doc,
  exists space body, formatted_doc_str after doc = [NL] ++ space ++ TQ ++ body ++ [NL] ++ space ++ TQ /\ forallb is_space space = true.
Proof.
  intros after doc. unfold formatted_doc_str. eexists. eexists. split; [reflexivity|].
  generalize (lstrip_chars [NL] after). intro s0. induction s0 as [|c r IH]; [reflexivity|].
  cbn [DocSplit.count_leading_space]. destruct (is_space c) eqn:E; [|reflexivity]. cbn [firstn forallb]. rewrite E. exact IH.
Qed.
Example C07_doc_edit_examples :
  doc_edit [] (s2l "
    x = 1") false = ENop
  /\ doc_edit [] (s2l "
    """"""old""""""") true = EDeleteAfter
  /\ doc_edit (s2l "old") (s2l "
    """"""  old
    """"""") true = ENop
  /\ doc_edit (s2l "
Summary
") (s2l "
    return 1") false = EInsertAfter (s2l "
    """"""
Summary
    """"""").
Proof. repeat split. Qed.

(* doctransify_cst as a whole (Model/DoctransFlow.v): for every definition of the converted AST, in any order, with any new
   docstring and ANY rewrite of the header text -- find the CST node, edit the docstring node after it, rewrite the header.
   Every CST node that is neither a def / class header nor a docstring keeps its text and its place; so do all the
   statements, comments and blank lines they hold. *)
From CDD Require Import DoctransFlow DoctransFlowProofs.
Theorem C07_only_headers_and_docstrings_change : forall defs l,
  forallb (fun d => header_kind (d_kind d)) defs = true -> others (doctransify l defs) = others l.
Proof.
  induction defs as [|d r IH]; intros l H; [reflexivity|]. cbn [forallb] in H. apply andb_true_iff in H as [H1 H2].
  unfold doctransify. cbn [fold_left]. fold (doctransify (step l d) r). rewrite IH by exact H2. apply step_others, H1.
Qed.
Print Assumptions C07_only_headers_and_docstrings_change.

(* Which CST node an AST definition is written back to (find_cst_at_ast): the FIRST node whose line window contains the
   definition's line and whose kind and name agree; when there is none, no node satisfies the three conditions. *)
Theorem C07_find_cst_first_match : forall l lineno kind name k,
  find_cst l lineno kind name = Some k ->
  exists c, nth_error l k = Some c /\ cst_matches lineno kind name c = true
            /\ forall j' c', (j' < k)%nat -> nth_error l j' = Some c' -> cst_matches lineno kind name c' = false.
Proof. intros l lineno kind name k H. destruct (find_cst_from_spec l O lineno kind name k H) as [j [c [-> R]]]. exists c. exact R. Qed.
Print Assumptions C07_find_cst_first_match.
Theorem C07_find_cst_none : forall l lineno kind name,
  find_cst l lineno kind name = None -> forall c, In c l -> cst_matches lineno kind name c = false.
Proof.
  intros l lineno kind name. unfold find_cst. generalize O. induction l as [|c r IH]; intros i H x Hx; [destruct Hx|].
  cbn [find_cst_from] in H. destruct (cst_matches lineno kind name c) eqn:E; [discriminate|].
  destruct Hx as [<-|Hx]; [exact E | exact (IH (S i) H x Hx)].
Qed.

(* Failure atomicity.  doctrans_order (Gen/DoctransOrder.v) is the list of calls of cdd/compound/doctrans.py:doctrans
   in evaluation order, regenerated from the source on every run.  Whichever package call raises, no open-for-write
   has been executed before it: the file on disk is still the original. *)
Theorem C07_checker_sound : forall items i c,
  atomic false items = true -> nth_error items i = Some (ECall c) -> truncated_when_raising_at items i = false.
Proof. intros items i c Ha Hc. apply (atomic_spec items false i c Ha Hc). Qed.
Print Assumptions C07_checker_sound.

Theorem C07_failure_atomic : forall i c,
  nth_error doctrans_order i = Some (ECall c) -> truncated_when_raising_at doctrans_order i = false.
Proof. intros i c. apply C07_checker_sound. vm_compute. reflexivity. Qed.
Print Assumptions C07_failure_atomic.

(* non-vacuity: the order does write the file, and package calls that can raise do precede it *)
Theorem C07_order_nonvacuous :
  In EOpenWrite doctrans_order /\ In (ECall (s2l "doctransify_cst")) doctrans_order /\ In (ECall (s2l "cst_parse")) doctrans_order.
Proof. repeat split; cbn [In doctrans_order]; tauto. Qed.

(* ---- how a header comes to be re-printed at all: doctrans takes the header text out of the file, makes it parsable with
   cst_utils.reindent_block_with_pass_body (Model/Reindent.v, compared with the code on generated headers each run) and compares the
   parsed arguments with the ones it computed.  For EVERY one-line header without a run of four blanks, whatever its indentation, the
   text that is parsed is the header itself plus " pass" -- so its arguments compare equal and it is left alone.  A header WITH four
   blanks in a row (a string default such as '    ') is changed by the helper: the recorded finding
   "header-reprint-.../positional-annotations-unchanged". *)
From CDD Require Reindent ReindentProofs RestDocProofs RestDocIndentProofs.
Theorem C07_header_untouched_by_reindent : forall ind h : str,
  RestDocProofs.blank ind = true -> RestDocIndentProofs.one_line ind = true -> RestDocIndentProofs.one_line h = true ->
  RestDocProofs.head_ok h = true -> contains Reindent.TAB4 h = false ->
  Reindent.reindent_block_with_pass_body (ind ++ h) = h ++ Reindent.PASS.
Proof.
  intros ind h B O1 O2 Hh C. unfold Reindent.reindent_block_with_pass_body.
  rewrite (PyStrFacts.split_char_absent NL (ind ++ h)).
  - cbn [map join]. rewrite (RestDocProofs.lstrip_blank_app ind h B), (RestDocProofs.lstrip_head_ok h Hh).
    rewrite (PyStrFacts.replace1_absent Reindent.TAB4 [] h C). reflexivity.
  - rewrite in_app_iff. intros [K|K]; [exact (RestDocIndentProofs.one_line_not_in ind O1 K) | exact (RestDocIndentProofs.one_line_not_in h O2 K)].
Qed.
Print Assumptions C07_header_untouched_by_reindent.
Example C07_reindent_refuted :
  Reindent.reindent_block_with_pass_body (s2l "    def f(a, indent='    '):") = s2l "def f(a, indent=''): pass".
Proof. exact ReindentProofs.header_with_four_blanks_refuted. Qed.
Example C07_reindent_example :
  Reindent.reindent_block_with_pass_body (s2l "    def f(a: int = 5, *rest, sep=',  '):") = s2l "def f(a: int = 5, *rest, sep=',  '): pass".
Proof. exact ReindentProofs.header_example. Qed.
