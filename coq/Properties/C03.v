(* C03 -- any chain of format conversions preserves the interface. *)
From CDD Require Import PyStr Norm NormProofs.

(* On the stable part of the common domain (a default is present and is not None; ints non-negative) every
   chain of conversions over {class, pydantic, function, argparse, docstring-rest}, of ANY length, gives
   back exactly the type string and default it started with (same constructor, same value) *)
Theorem C03_chain : forall fs p, dom03 p = true -> chain fs p = Some p.
Proof.
  unfold chain. induction fs as [|f r IH]; intros p H; cbn [fold_left]; [reflexivity|].
  rewrite (N_id_on_dom f p H). apply IH, H.
Qed.
Print Assumptions C03_chain.
Theorem C03_commute : forall fs gs p, dom03 p = true -> chain fs p = chain gs p.
Proof. intros fs gs p H. rewrite !C03_chain by exact H. reflexivity. Qed.

(* outside that part the faithful model drifts, exactly as the code does: each statement below is the
   NEGATION of the property on a short chain, with its witness (the same chains are replayed on the
   implementation by the check, where they are recorded findings) *)
Definition T_int := mkT false (IBase BInt).
Theorem C03_refuted_absent_via_function :
  chain [FFunction; FClass] (T_int, DAbs) = Some (mkT true (IBase BInt), DNone).   (* the type widened on the 2nd hop *)
Proof. vm_compute. reflexivity. Qed.
Theorem C03_refuted_none_via_docstring :
  chain [FDocstring] (mkT true (IBase BInt), DNone) = Some (mkT true (IBase BInt), DStr (s2l "(None)")).
Proof. vm_compute. reflexivity. Qed.
Theorem C03_refuted_negative_int_via_docstring :
  chain [FDocstring] (T_int, DInt (-3)) = Some (T_int, DFloat (s2l "-3.0")).
Proof. vm_compute. reflexivity. Qed.
Theorem C03_refuted_argparse_zero :
  chain [FArgparse] (T_int, DAbs) = Some (T_int, DInt 0)
  /\ chain [FClass; FArgparse] (T_int, DAbs) <> chain [FClass; FFunction] (T_int, DAbs).   (* conversions do not commute *)
Proof. split; vm_compute; [reflexivity | discriminate]. Qed.

Example C03_nonvacuous : dom03 (mkT true (ILit [s2l "a"; s2l "b"]), DStr (s2l "a")) = true.
Proof. reflexivity. Qed.

(* ---- the argparse row of the normal-form table is not only measured: it is DERIVED from the two halves of the argparse hop.  For EVERY
   parameter of the table's domain on which the halves are consistent (a None default belongs to an Optional type; the members of an
   Optional Literal do not spell "Optional"): what the emitter registers (Model/Exec.v: argparse_action, compared with a live
   ArgumentParser by C04's check) read back by the transcribed reader (Model/ArgRead.v: parse_out_param, compared with the code on
   generated calls by this check and C02's) has the type and the default that N0 FArgparse states. *)
From CDD Require Exec ArgRead ArgChainProofs.
Theorem C03_argparse_row_derived : forall name t d, ArgChainProofs.chain_dom (t, d) = true ->
  match N0 FArgparse (t, d) with
  | Some (t', d') =>
      exists r, ArgRead.parse_out_param (ArgChainProofs.call_of name (Exec.argparse_action (t, d))) = Some r
                /\ ArgRead.r_typ r = ArgChainProofs.render_ctyp t' /\ ArgRead.r_default r = ArgChainProofs.adefault_of d'
  | None => True
  end.
Proof.
  (* N0 FArgparse is a table: the derived value is compared with it row by row; the one thing that does not compute is whether the
     Literal's text spells "Optional" *)
  intros name t d Hdom. destruct (N0 FArgparse (t, d)) as [[t' d']|] eqn:E; [|exact I]. rewrite ArgChainProofs.parse_bare by reflexivity.
  cbn [ArgChainProofs.call_of ArgRead.a_type ArgRead.a_choices ArgRead.a_required ArgRead.a_default ArgRead.a_name].
  destruct t as [o [b|ms]].
  - rewrite ArgChainProofs.base_type_read. eexists. split; [reflexivity|]. cbn [ArgRead.r_typ ArgRead.r_default].
    rewrite ArgChainProofs.base_not_optional.
    destruct o, b, d; try discriminate Hdom; injection E as <- <-; split; reflexivity.
  - cbn [Exec.argparse_action Exec.a_choices Exec.a_type t_inner option_map]. rewrite ArgChainProofs.lit_choices.
    eexists. split; [reflexivity|]. cbn [ArgRead.r_typ ArgRead.r_default].
    assert (O : o = true -> contains (s2l "Optional") (ArgChainProofs.lit_text ms) = false).
    { intros ->. unfold ArgChainProofs.chain_dom in Hdom. apply andb_prop in Hdom as [_ HL]. apply negb_true_iff, HL. }
    destruct o; [rewrite (O eq_refl)|]; destruct d; try discriminate Hdom; injection E as <- <-; split; reflexivity.
Qed.
Print Assumptions C03_argparse_row_derived.
Example C03_argparse_row_examples :
  ArgChainProofs.chain_dom (mkT false (IBase BInt), DAbs) = true /\ ArgChainProofs.chain_dom (mkT true (ILit [s2l "a"; s2l "b"]), DStr (s2l "a")) = true
  /\ option_map ArgRead.r_typ (ArgRead.parse_out_param (ArgChainProofs.call_of (s2l "n") (Exec.argparse_action (mkT true (ILit [s2l "b"; s2l "a"]), DAbs))))
      = Some (s2l "Optional[Literal['b', 'a']]").
Proof. exact ArgChainProofs.argparse_row_examples. Qed.
