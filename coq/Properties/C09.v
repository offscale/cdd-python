(* C09 -- the concrete syntax tree is lossless for every input string. *)
From CDD Require Import PyStr Cst CstProofs.

(* for any alphabet and ANY behaviour of the lexical predicates *)
Theorem C09_lossless_parametric :
  forall (C : Type) (is_nl : C -> bool) (is_comment has_triple is_other cut_here : list C -> bool) (src : list C),
    concat (cst_scanner_gen C is_nl is_comment has_triple is_other cut_here src) = src.
Proof. exact cst_scanner_gen_lossless. Qed.
Print Assumptions C09_lossless_parametric.

(* the executable instantiation that is run against cdd.shared.cst_utils.cst_scanner *)
Theorem C09_lossless : forall src : str, concat (cst_scanner src) = src.
Proof. exact (cst_scanner_gen_lossless char _ _ _ _ _). Qed.
Print Assumptions C09_lossless.

Theorem C09_values : forall src : str, map n_value (cst_parse src) = cst_scanner src.
Proof. exact (fun src => parser_values_aux (cst_scanner src) 1%Z UnchangingLine). Qed.
Print Assumptions C09_values.

Theorem C09_node_texts_concat : forall src : str, concat (map n_value (cst_parse src)) = src.
Proof. exact cst_parse_lossless. Qed.
Print Assumptions C09_node_texts_concat.

(* first node starts at line 1, each node starts where the previous ended,
   every node spans exactly as many line breaks as its text contains *)
Theorem C09_tiling : forall src : str,
  chain 1%Z (cst_parse src) /\ Forall spans (cst_parse src).
Proof. exact (fun src => parser_tiling_aux (cst_scanner src) 1%Z UnchangingLine). Qed.
Print Assumptions C09_tiling.

Theorem C09_last_line : forall src : str,
  last_end 1%Z (cst_parse src) = (1 + Z.of_nat (count_char NL src))%Z.
Proof.
  intro src. unfold cst_parse, cst_parser. rewrite parser_last_end_aux, (C09_lossless src). reflexivity.
Qed.
Print Assumptions C09_last_line.

(* non-vacuity: a comment, a decorator spanning lines, an unbalanced quote *)
Example C09_ex1 :
  map (fun n => (n_start n, n_end n, List.length (n_value n))) (cst_parse (s2l "# c
@a(
 1)
def f(): pass
x = '")) = [(1%Z, 1%Z, 3%nat); (1%Z, 5%Z, 28%nat)].
Proof. vm_compute. reflexivity. Qed.
