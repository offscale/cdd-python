(* C01 -- docstring <-> interface round trip: the "default <-> 'Defaults to' prose" mechanism. *)
From CDD Require Import PyStr DefaultDoc DefaultDocProofs.
From CDD Require PyStrFacts.

(* For EVERY description that announces no default and EVERY rendered default text: the announcer is appended
   after the description (the description is a prefix, a full stop is added only when neither '.' nor ','
   ends it) ... *)
Theorem C01_default_in_prose : forall strip doc t,
  has_defaults doc = false ->
  exists rest, set_default_doc strip doc (Some t) true = doc ++ rest /\
               (ends_with_stop doc = true -> rest = s2l " Defaults to " ++ t) /\
               (ends_with_stop doc = false -> rest = [46] ++ s2l " Defaults to " ++ t).
Proof.
  intros strip doc t H. rewrite (set_default_doc_once strip doc t H).
  destruct (ends_with_stop doc); eexists; (split; [|split; intro; try discriminate; reflexivity]).
  - reflexivity.
  - rewrite <- app_assoc. reflexivity.
Qed.
Print Assumptions C01_default_in_prose.
(* ... exactly once, however often the emitter is applied (has_defaults guard) ... *)
Theorem C01_default_announced_once : forall strip doc t,
  has_defaults doc = false ->
  set_default_doc strip (set_default_doc strip doc (Some t) true) (Some t) true = set_default_doc strip doc (Some t) true.
Proof.
  intros strip doc t H. rewrite (set_default_doc_once strip doc t H). apply set_default_doc_fixed, orb_true_iff. left.
  apply PyStrFacts.contains_app_r, (PyStrFacts.contains_at (s2l "Defaults") [SP]).
Qed.
(* ... and with emit_default_doc off nothing is written into the prose *)
Theorem C01_default_stripped : forall strip doc d, has_defaults doc = false -> set_default_doc strip doc d false = doc.
Proof. intros strip doc d H. unfold set_default_doc. rewrite H. destruct d; reflexivity. Qed.
(* string defaults are quoted exactly once *)
Theorem C01_quote_idempotent : forall s, quote (quote s) = quote s.
Proof.
  intro s. destruct (quote_cases s) as [E|E]; rewrite E; [exact E | apply quote_wrapped].
Qed.
Print Assumptions C01_quote_idempotent.

Example C01_example :
  set_default_doc (fun d => d) (s2l "the value") (Some (quote (s2l "x"))) true = s2l "the value. Defaults to ""x""".
Proof. vm_compute. reflexivity. Qed.

(* ---------------------------------------------------------------------------------------------------------------
   The ReST round trip itself.  Model/RestDoc.v transcribes the ReST emitter (cdd/docstring/emit.py:docstring +
   emit_param_str; word_wrap off, indent 0) and the ReST scanner / parser (_scan_phase_rest, _parse_phase_rest). *)
From CDD Require Import RestDoc RestDocProofs.

(* the scanner loses no character: for EVERY string the scanned segments concatenate to the docstring *)
Theorem C01_rest_scan_lossless : forall doc : str, concat (map snd (scan_rest doc)) = doc.
Proof. intro doc. unfold scan_rest. rewrite finish_flat, scan_chars_flat. reflexivity. Qed.
Print Assumptions C01_rest_scan_lossless.

(* it cuts exactly in front of every token when the text between tokens is inert (line_ok: after a token no later
   prefix of the stack ends with a token -- decided by the text from the last colon on) *)
Theorem C01_rest_scan_splits_at_tokens : forall (h : str) (tb : str * str) (L : list (str * str)),
  no_colon h = true -> Forall line_ok (tb :: L) ->
  scan_rest (h ++ concat (map cat (tb :: L))) = (false, h) :: map (fun x => (true, cat x)) (tb :: L).
Proof. exact scan_lines. Qed.
Print Assumptions C01_rest_scan_splits_at_tokens.

(* for EVERY description with clean prose (non-blank first and last character, no colon), distinct plain parameter names
   (non-empty, no blank / colon, no leading star, not ...kwargs), each parameter with a description and / or a type
   (no back-tick, no colon, not **...), at least one parameter, optional return entry:
   the emitter writes header, blank line, ":param n: d" / ":type n: ```t```" blocks separated by blank lines, return lines *)
Theorem C01_rest_emit_canonical : forall doc ps ret,
  clean doc = true -> forallb param_ok ps = true -> ps <> [] -> ret_ok ret = true ->
  emit_rest true doc ps ret = render doc ps ret.
Proof. intros doc ps ret Hd Hp Hne Hr. exact (emit_is_render doc ps ret Hd Hp Hr (or_introl Hne)). Qed.
Print Assumptions C01_rest_emit_canonical.

(* the parser reads that text back as exactly the description it came from (also with no parameter but a return entry) *)
Theorem C01_rest_parse_canonical : forall doc ps ret,
  clean doc = true -> forallb param_ok ps = true -> NoDup (map fst ps) -> ret_ok ret = true -> (ps <> [] \/ ret <> None) ->
  parse_rest (render doc ps ret) = {| p_doc := doc; p_params := ps; p_ret := ret |}.
Proof. exact parse_render. Qed.
Print Assumptions C01_rest_parse_canonical.

(* hence: render-as-ReST then parse-back returns names, order, descriptions, types and the return entry unchanged *)
Theorem C01_rest_roundtrip : forall doc ps ret,
  clean doc = true -> forallb param_ok ps = true -> NoDup (map fst ps) -> ps <> [] -> ret_ok ret = true ->
  parse_rest (emit_rest true doc ps ret) = {| p_doc := doc; p_params := ps; p_ret := ret |}.
Proof. intros doc ps ret Hd Hp Hnd Hne Hr. exact (rest_roundtrip doc ps ret Hd Hp Hnd Hr (or_introl Hne)). Qed.
Print Assumptions C01_rest_roundtrip.

(* ... also for a description that has a return entry and no parameter *)
Theorem C01_rest_roundtrip_return_only : forall doc r,
  clean doc = true -> entry_ok r = true ->
  parse_rest (emit_rest true doc [] (Some r)) = {| p_doc := doc; p_params := []; p_ret := Some r |}.
Proof.
  intros doc r Hd Hr. apply rest_roundtrip; [exact Hd | reflexivity | constructor | exact Hr | right; discriminate].
Qed.
Print Assumptions C01_rest_roundtrip_return_only.

(* with emit_types off the text is the one of the description without its types, and reads back as that description
   (every parameter must then carry a description: one that has only a type is not written at all) *)
Theorem C01_rest_roundtrip_no_types : forall doc ps ret,
  clean doc = true -> forallb param_ok (drop_typs ps) = true -> NoDup (map fst ps) -> ps <> [] -> ret_ok (option_map drop_typ ret) = true ->
  parse_rest (emit_rest false doc ps ret) = {| p_doc := doc; p_params := drop_typs ps; p_ret := option_map drop_typ ret |}.
Proof.
  intros doc ps ret Hd Hp Hnd Hne Hr. rewrite emit_false_is_emit_true_without_types. apply rest_roundtrip; [exact Hd | exact Hp | | exact Hr |].
  - unfold drop_typs. rewrite map_map. exact Hnd.
  - left. apply PyStrFacts.map_ne, Hne.
Qed.
Print Assumptions C01_rest_roundtrip_no_types.

(* ... and for the docstring as it is written INSIDE a function or a class (indent_level = k+1: every line prefixed with k+1 tabs,
   wrapped in a leading newline and a trailing newline + tabs), for every k, when the texts hold no line break *)
From CDD Require Import RestDocIndentProofs.
Theorem C01_rest_emit_indented_canonical : forall k doc ps ret,
  clean doc = true -> one_line doc = true -> forallb param_ok ps = true -> forallb param_1l ps = true -> ps <> [] ->
  ret_ok ret = true -> ret_1l ret = true ->
  emit_rest_indented (S k) true doc ps ret
  = grender (S1_of (S k)) (S2_of (S k)) (S1_of (S k)) (S1_of (S k)) (S2_of (S k)) doc ps ret.
Proof. intros k doc ps ret Hd H1 Hp Hp1 Hne Hr Hr1. exact (emit_indented_is_grender k doc ps ret Hd H1 Hp Hp1 Hr Hr1 (or_introl Hne)). Qed.
Print Assumptions C01_rest_emit_indented_canonical.
Theorem C01_rest_roundtrip_indented : forall k doc ps ret,
  clean doc = true -> one_line doc = true -> forallb param_ok ps = true -> forallb param_1l ps = true -> NoDup (map fst ps) -> ps <> [] ->
  ret_ok ret = true -> ret_1l ret = true ->
  parse_rest (emit_rest_indented (S k) true doc ps ret) = {| p_doc := doc; p_params := ps; p_ret := ret |}.
Proof.
  intros k doc ps ret Hd H1 Hp Hp1 Hnd Hne Hr Hr1. rewrite emit_indented_is_grender, grender_canon by auto.
  apply parse_canon_text; auto using blank_S1, blank_S2. left. reflexivity.
Qed.
Print Assumptions C01_rest_roundtrip_indented.

(* non-vacuity: a description meeting every hypothesis, and what is written for it *)
Example C01_rest_example :
  let ps := [(s2l "dataset_name", {| pe_doc := Some (s2l "name of dataset"); pe_typ := Some (s2l "str") |});
             (s2l "K", {| pe_doc := None; pe_typ := Some (s2l "Literal['np', 'tf']") |})] in
  let ret := Some {| pe_doc := Some (s2l "the outcome"); pe_typ := None |} in
  clean (s2l "Acquire from the official tensorflow_datasets model zoo") = true /\ forallb param_ok ps = true /\ ret_ok ret = true
  /\ emit_rest true (s2l "Acquire from the official tensorflow_datasets model zoo") ps ret
     = s2l "Acquire from the official tensorflow_datasets model zoo

:param dataset_name: name of dataset
:type dataset_name: ```str```

:type K: ```Literal['np', 'tf']```

:return: the outcome
".
Proof. vm_compute. repeat split. Qed.

(* the token lists of Model/RestDoc.v are the ones the source declares (TOKENS.rest and its split into ARG_TOKENS / RETURN_TOKENS,
   regenerated from cdd/shared/docstring_utils.py on every run by translate/constants.py) *)
From CDD Require Import SourceConstants.
Theorem C01_rest_tokens_are_the_sources :
  arg_tokens = src_rest_arg_tokens /\ return_tokens = src_rest_return_tokens /\ all_tokens = src_rest_tokens.
Proof. repeat split. Qed.

(* ---- defaults carried in the prose: what the emitter announces, the parser's extract_default finds again ---------------------
   Model/ExtractDefault.v transcribes cdd/shared/defaults_utils.py:extract_default at text level (location_within with the
   case-folding comparator over DEFAULTS_TO_VARIANTS, plain and parenthesised; the character loop that delimits the default; the
   slicing that removes the announcer); Model/DefaultDoc.v:set_default_doc is the emitter's side.  [has_kw x = false] says that x
   does not contain the word "default" in any capitalisation. *)
From CDD Require ExtractDefault ExtractDefaultProofs.

(* a description that never says "default" is returned unchanged and no default is invented -- for EVERY such text *)
Theorem C01_no_announcer_no_default : forall (line : str) (emit_default_doc : bool),
  ExtractDefaultProofs.has_kw line = false ->
  ExtractDefault.extract_default_text line emit_default_doc = (line, None).
Proof.
  intros line edd F. unfold ExtractDefault.extract_default_text.
  rewrite (ExtractDefaultProofs.no_announcer [ExtractDefault.LP] line F
           : ExtractDefault.loc_within (map (fun v => ExtractDefault.LP :: v) ExtractDefault.VARIANTS) line = None).
  rewrite (ExtractDefaultProofs.no_announcer [] line F : ExtractDefault.loc_within ExtractDefault.VARIANTS line = None). reflexivity.
Qed.
Print Assumptions C01_no_announcer_no_default.

(* for EVERY description d and default text t that do not contain the word "default", t being a text the character loop keeps
   whole (no sentence-ending "."): the line the emitter writes, "<d>[.] Defaults to <t>", is read back as exactly t (code quotes
   and blanks around it removed), and the description comes back as d plus the full stop the emitter added -- nothing of d is cut
   off, nothing of t leaks into it, whatever characters (any script, any case-folding behaviour) d contains *)
Theorem C01_default_text_roundtrip : forall (strip : str -> str) (d t : str),
  ExtractDefaultProofs.has_kw d = false -> ExtractDefaultProofs.has_kw t = false -> ExtractDefault.scan_default t false = t ->
  ExtractDefault.extract_default_text (DefaultDoc.set_default_doc strip d (Some t) true) false
    = (ExtractDefaultProofs.dotted d, Some (ExtractDefaultProofs.strip3 t))
  /\ ExtractDefault.extract_default_text (DefaultDoc.set_default_doc strip d (Some t) true) true
    = (DefaultDoc.set_default_doc strip d (Some t) true, Some (ExtractDefaultProofs.strip3 t)).
Proof. exact ExtractDefaultProofs.default_text_roundtrip. Qed.
Print Assumptions C01_default_text_roundtrip.

(* a sufficient syntactic condition for the hypothesis on t *)
Theorem C01_text_without_full_stop_is_kept : forall (t : str),
  forallb (fun c => negb (N.eqb c ExtractDefault.DOT)) t = true -> forall b, ExtractDefault.scan_default t b = t.
Proof.
  induction t as [|c r IH]; intros H b; [reflexivity|]. cbn [forallb] in H. apply andb_true_iff in H as [H1 H2].
  cbn [ExtractDefault.scan_default]. apply negb_true_iff in H1. rewrite H1. cbn [andb]. rewrite IH by exact H2. reflexivity.
Qed.

(* the hypotheses are met by non-trivial inputs, and what the model returns on them: a negative number after a description with
   a character whose case-folding is longer than itself; a code-quoted expression with ".join" after a closed bracket group *)
Example C01_default_text_examples :
  let run d t := ExtractDefault.extract_default_text (DefaultDoc.set_default_doc (fun x => x) (s2l d) (Some (s2l t)) true) false in
  ExtractDefaultProofs.has_kw (s2l "Größe des Puffers"%string) = false
  /\ ExtractDefault.scan_default (s2l "12.5"%string) false = s2l "12.5"%string
  /\ run "the size"%string "-16"%string = (s2l "the size."%string, Some (s2l "-16"%string))
  /\ run "the ratio,"%string "12.5"%string = (s2l "the ratio,"%string, Some (s2l "12.5"%string))
  /\ run "the separator"%string "```(""-"" * 3).join(""ab"")```"%string = (s2l "the separator."%string, Some (s2l "(""-"" * 3).join(""ab"")"%string))
  (* outside the hypothesis: a default with a sentence-ending "."%string is cut there, and the rest lands in the description *)
  /\ run "the host"%string "a.b"%string = (s2l "the host.b"%string, Some (s2l "a"%string)).
Proof. vm_compute. repeat split. Qed.

(* the announcers the model searches for are the ones of the source (regenerated on every run) *)
Theorem C01_announcers_are_the_sources : ExtractDefault.VARIANTS = src_defaults_to_variants.
Proof. vm_compute. reflexivity. Qed.

(* ---- the whole ReST pipeline for defaults carried in the prose: set_default_doc -> ReST emitter -> scanner -> parser ->
   extract_default.  For EVERY clean description, EVERY non-empty list of distinctly named parameters, each with a description
   d and a default text t in the stated domain (no colon, no blank at the outer ends, the word "default" nowhere, t kept whole by
   the scan): rendering and parsing back returns the same names in the same order, and for each of them the description d (plus
   the emitter's full stop) and exactly the default text t. *)
From CDD Require RestDefaultProofs.
Theorem C01_rest_default_roundtrip : forall (doc : str) (items : list RestDefaultProofs.item),
  clean doc = true -> forallb RestDefaultProofs.item_ok items = true -> NoDup (map fst items) -> items <> [] ->
  let back := parse_rest (emit_rest true doc (map RestDefaultProofs.item_param items) None) in
  p_doc back = doc /\ p_ret back = None
  /\ map RestDefaultProofs.read_back (p_params back)
     = map (fun it => (fst it, (ExtractDefaultProofs.dotted (fst (snd it)), Some (ExtractDefaultProofs.strip3 (snd (snd it)))))) items.
Proof.
  intros doc items Hd Hi Hn Hne. cbn zeta. rewrite forallb_forall in Hi.
  rewrite (rest_roundtrip doc (map RestDefaultProofs.item_param items) None Hd); cbn [p_doc p_ret p_params].
  - split; [reflexivity | split; [reflexivity|]]. rewrite map_map. apply map_ext_in. intros it Hit.
    apply RestDefaultProofs.read_back_item, Hi, Hit.
  - apply forallb_forall. intros p Hin. apply in_map_iff in Hin as [it [<- Hit]]. apply RestDefaultProofs.item_param_ok, Hi, Hit.
  - rewrite map_map. exact Hn.
  - reflexivity.
  - left. apply PyStrFacts.map_ne, Hne.
Qed.
Print Assumptions C01_rest_default_roundtrip.

Example C01_rest_default_example :
  let items := [(s2l "size"%string, (s2l "Größe des Puffers"%string, s2l "-16"%string)); (s2l "ratio"%string, (s2l "load factor,"%string, s2l "12.5"%string))] in
  forallb RestDefaultProofs.item_ok items = true
  /\ emit_rest true (s2l "Resize it"%string) (map RestDefaultProofs.item_param items) None
     = s2l "Resize it

:param size: Größe des Puffers. Defaults to -16

:param ratio: load factor, Defaults to 12.5
"%string.
Proof. vm_compute. split; reflexivity. Qed.

(* ---- style detection precedes parsing (derive_docstring_format: token presence, ReST first; Model/StyleDetect.v, compared with
   the code on token text each run).  The ReST text of EVERY interface of the round-trip theorem's domain is detected as ReST, so the
   ReST scanner and parser of the theorems above are the ones parse_docstring runs on it. *)
From CDD Require StyleDetect StyleDetectProofs.
Theorem C01_rest_text_is_detected_as_rest : forall doc ps ret,
  clean doc = true -> forallb param_ok ps = true -> ps <> [] -> ret_ok ret = true ->
  StyleDetect.derive_format (emit_rest true doc ps ret) = StyleDetect.Rest.
Proof.
  intros doc ps ret Hd Hp Hne Hr. rewrite (emit_is_render doc ps ret Hd Hp Hr (or_introl Hne)).
  apply StyleDetectProofs.render_is_rest; [assumption | assumption | left; exact Hne].
Qed.
Print Assumptions C01_rest_text_is_detected_as_rest.

Theorem C01_style_tokens_are_the_sources :
  StyleDetect.google_tokens = src_google_tokens /\ StyleDetect.numpydoc_tokens = src_numpydoc_tokens.
Proof. split; vm_compute; reflexivity. Qed.

(* prose alone decides as well (facts about the faithful model): a description that merely mentions "Args:" is read as Google *)
Example C01_style_examples :
  StyleDetect.derive_format (s2l "Just prose."%string) = StyleDetect.Numpydoc
  /\ StyleDetect.derive_format (s2l "Args: are described below"%string) = StyleDetect.Google
  /\ StyleDetect.derive_format (s2l "See :param x: above. Args: too"%string) = StyleDetect.Rest.
Proof. exact StyleDetectProofs.style_examples. Qed.

(* ---- the parameter lines of a Google-style docstring (Model/GoogleLine.v: emit_param_str for style "google" and the unit reader of the
   Google / NumPy parse phase, both compared with the code each run through emit_param_str and parse_docstring).  For EVERY list of
   entries of the domain -- names and types that are not blank at either end and hold no colon, names without "(", types without the
   word " or ", descriptions (if any) that are not blank at either end, do not end in a colon and are not the "{a, b}" choice syntax --
   the lines written are read back as exactly those entries, in order: no written line is taken for the start of the free text
   "afterwards" (C01_google_line_not_afterward: it ends in a blank or in the last character of its description). *)
From CDD Require GoogleLine GoogleLineProofs.
Theorem C01_google_params_roundtrip : forall es, forallb GoogleLineProofs.entry_ok es = true ->
  GoogleLine.google_params (map GoogleLineProofs.emit_entry es) = GoogleLine.PList (map GoogleLineProofs.read_entry es).
Proof. exact GoogleLineProofs.google_params_roundtrip. Qed.
Print Assumptions C01_google_params_roundtrip.
Theorem C01_google_line_not_afterward : forall n t d,
  match d with Some x => x <> [] /\ match last_opt x with Some c => negb (N.eqb c GoogleLine.GCOLON) | None => true end = true | None => True end ->
  GoogleLine.is_afterward (GoogleLine.emit_google_param n t d) = false.
Proof. exact GoogleLineProofs.google_line_not_afterward. Qed.
Print Assumptions C01_google_line_not_afterward.
(* non-vacuity, and what lies outside the domain: a parameter line whose trailing blank was trimmed ("  b (int):") ends the parameter
   list -- it and every line after it become free text; a colon-less line ends the list silently; "(int or str)" is read as a Union *)
Example C01_google_examples :
  GoogleLine.google_params [s2l "  a (int): the value"; s2l "  b: other"; s2l "  c (List[str]): "]
  = GoogleLine.PList [(s2l "a", Some (s2l "int"), s2l "the value"); (s2l "b", None, s2l "other"); (s2l "c", Some (s2l "List[str]"), [])]
  /\ forallb GoogleLineProofs.entry_ok [(s2l "a", Some (s2l "int"), Some (s2l "the value")); (s2l "b", None, Some (s2l "other")); (s2l "c", Some (s2l "List[str]"), None)] = true
  /\ GoogleLine.google_params [s2l "  a (int): v"; s2l "  b (int):"; s2l "  c (int): w"] = GoogleLine.PList [(s2l "a", Some (s2l "int"), s2l "v")]
  /\ GoogleLine.google_params [s2l "  a (int or str): v"] = GoogleLine.PList [(s2l "a", Some (s2l "Union[int, str]"), s2l "v")]
  /\ GoogleLine.google_params [s2l "  a (int)x: v"] = GoogleLine.PRaises
  /\ GoogleLine.google_params [s2l "  a (int): v"; s2l "  b"; s2l "  c: w"] = GoogleLine.PList [(s2l "a", Some (s2l "int"), s2l "v")].
Proof. exact GoogleLineProofs.google_examples. Qed.

(* ---- the NumPy counterpart (Model/NumpyLine.v, compared with emit_param_str and, through parse_docstring, with the NumPy unit reader):
   for EVERY name that is not blank at either end and holds no colon, every type and one-line description that do not start with a
   blank, "name : typ" followed by the indented description is read back as that entry.  With types omitted only the description
   line is written and is read as a NAME (C01_numpy_without_types_refuted: the recorded names/missing finding, as a fact about the
   faithful model). *)
From CDD Require NumpyLine NumpyLineProofs.
Theorem C01_numpy_unit_roundtrip : forall n t d,
  RestDocProofs.head_ok n = true -> RestDocProofs.head_ok (rev n) = true -> GoogleLineProofs.lacks GoogleLine.GCOLON n = true ->
  RestDocProofs.head_ok t = true -> match d with Some x => RestDocProofs.head_ok x = true | None => True end ->
  NumpyLine.parse_numpy_unit (NumpyLine.emit_numpy_param true true n (Some t) d)
  = NumpyLine.NEntry n (Some t) (Some (match d with Some x => x | None => [] end)).
Proof. exact NumpyLineProofs.numpy_unit_roundtrip. Qed.
Print Assumptions C01_numpy_unit_roundtrip.
Example C01_numpy_without_types_refuted :
  NumpyLine.emit_numpy_param false true (s2l "size") (Some (s2l "int")) (Some (s2l "how big")) = [s2l "    how big"]
  /\ NumpyLine.parse_numpy_unit [s2l "    how big"] = NumpyLine.NEntry (s2l "how big") None None.
Proof. exact NumpyLineProofs.numpy_without_types_refuted. Qed.
Theorem C01_numpy_params_roundtrip : forall es, forallb NumpyLineProofs.nentry_ok es = true ->
  NumpyLine.numpy_params (map NumpyLineProofs.emit_nentry es) = map NumpyLineProofs.read_nentry es.
Proof. exact NumpyLineProofs.numpy_params_roundtrip. Qed.
Print Assumptions C01_numpy_params_roundtrip.
Example C01_numpy_example :
  NumpyLine.parse_numpy_unit (NumpyLine.emit_numpy_param true true (s2l "size") (Some (s2l "Optional[int]")) (Some (s2l "how big")))
  = NumpyLine.NEntry (s2l "size") (Some (s2l "Optional[int]")) (Some (s2l "how big")).
Proof. exact NumpyLineProofs.numpy_example. Qed.

(* ---- one ReST token line at a time (Model/RestDoc.v): the value of a ":return:" / ":rtype:" / ":param name:" line is EVERYTHING after
   the colon that closes the key, further colons in the prose included ("exit status: 0 on success" stays whole) -- for every text
   and every parser state. *)
From CDD Require RestLineProofs.
Theorem C01_rest_return_line_value : forall s body,
  RestDoc.st_ret (RestDoc.parse_token_line s (s2l ":return:" ++ body))
  = Some (RestDoc.set_doc (match RestDoc.st_ret s with Some e => e | None => RestDoc.empty_entry end) (strip body)).
Proof.
  intros s body. change (s2l ":return:" ++ body) with (T_return ++ COLON :: body). rewrite parse_rdoc_line. reflexivity.
Qed.
Print Assumptions C01_rest_return_line_value.
Theorem C01_rest_param_line_value : forall s n body, RestDocProofs.name_ok n = true ->
  RestDoc.st_cur (RestDoc.parse_token_line s (s2l ":param " ++ n ++ RestDoc.COLON :: body)) = Some (n, RestDoc.set_doc (RestDocProofs.cur_entry s n) (strip body)).
Proof.
  intros s n body Hn. change (s2l ":param " ++ n ++ RestDoc.COLON :: body) with (s2l ":param" ++ SP :: n ++ COLON :: body).
  rewrite (parse_doc_line (s2l ":param") s n body (or_introl eq_refl) Hn). reflexivity.
Qed.
Print Assumptions C01_rest_param_line_value.
Example C01_rest_return_line_with_colons :
  RestDoc.st_ret (RestDoc.parse_token_line RestDoc.init_state (s2l ":return: exit status: 0 on success"))
  = Some {| RestDoc.pe_doc := Some (s2l "exit status: 0 on success"); RestDoc.pe_typ := None |}.
Proof. exact RestLineProofs.return_line_with_colons. Qed.

(* ---- a WHOLE Google-style docstring (Model/GoogleHead.v: where the prose ends; Model/GoogleScan.v: the line scanner that groups the
   lines after "Args:" into units by indentation; Model/GoogleLine.v: what a unit says -- each compared with the code each run, the
   composition through parse_docstring).  For EVERY colon-free header (one paragraph or several) that is not blank at either end,
   whatever blank text surrounds it, and EVERY non-empty list of one-line entries of the domain of C01_google_params_roundtrip: the
   text "<header><blank>Args:" followed by one line per entry is read back as that header and exactly those entries, in order. *)
From CDD Require GoogleHead GoogleScan GoogleScanProofs.
Theorem C01_google_docstring_roundtrip : forall (pre H sep : str) (es : list GoogleLineProofs.entry),
  RestDocProofs.blank pre = true -> RestDocProofs.head_ok H = true -> RestDocProofs.head_ok (rev H) = true ->
  GoogleLineProofs.lacks GoogleLine.GCOLON H = true -> RestDocProofs.blank sep = true ->
  es <> [] -> forallb GoogleScanProofs.entry_ok1 es = true ->
  GoogleScan.google_docstring (pre ++ H ++ sep ++ GoogleHead.ARGS ++ [NL] ++ join [NL] (map GoogleLineProofs.emit_entry es))
  = (H, GoogleLine.PList (map GoogleLineProofs.read_entry es)).
Proof.
  intros pre H sep es BP H1 H2 HC B Hne Hes.
  rewrite <- (app_nil_r (join _ _)). (* the text ends in `++ if trail then [NL] else []` at trail = false *)
  exact (GoogleScanProofs.google_docstring_read false pre H sep es BP H1 H2 HC B Hne Hes).
Qed.
Print Assumptions C01_google_docstring_roundtrip.
Example C01_google_docstring_example :
  GoogleScan.google_docstring ([NL] ++ s2l "Load the dataset." ++ [NL; NL] ++ s2l "Rows are kept in order." ++ [NL; NL] ++ s2l "Args:" ++ [NL]
                    ++ s2l "  name (str): dataset to load" ++ [NL] ++ s2l "  batch_size (int): " ++ [NL] ++ s2l "  shuffle: randomise the row order")
  = (s2l "Load the dataset." ++ [NL; NL] ++ s2l "Rows are kept in order.",
     GoogleLine.PList [(s2l "name", Some (s2l "str"), s2l "dataset to load"); (s2l "batch_size", Some (s2l "int"), []); (s2l "shuffle", None, s2l "randomise the row order")]).
Proof. exact GoogleScanProofs.google_docstring_example. Qed.

(* ---- a WHOLE NumPy-style docstring (Model/NumpyScan.v: where the prose ends; the line scanner of Model/GoogleScan.v; the unit reader
   of Model/NumpyLine.v; the composition compared with parse_docstring each run).  For EVERY header without "-" that is not blank at
   either end, whatever blank text surrounds it, and EVERY non-empty list of typed one-line entries of the domain of
   C01_numpy_params_roundtrip: "<header><blank>Parameters / ----------" followed by "name : typ" and the indented description of each
   entry is read back as that header and exactly those entries, in order. *)
From CDD Require NumpyScan NumpyScanProofs.
Theorem C01_numpy_docstring_roundtrip : forall (pre H sep : str) (es : list NumpyLineProofs.nentry),
  RestDocProofs.blank pre = true -> RestDocProofs.head_ok H = true -> RestDocProofs.head_ok (rev H) = true ->
  GoogleLineProofs.lacks NumpyScanProofs.DASH H = true -> RestDocProofs.blank sep = true ->
  es <> [] -> forallb NumpyScanProofs.nentry_ok1 es = true ->
  NumpyScan.numpy_docstring (pre ++ H ++ sep ++ NumpyScan.NPARAMS ++ [NL] ++ join [NL] (concat (map NumpyLineProofs.emit_nentry es)))
  = (H, map NumpyLineProofs.read_nentry es).
Proof.
  intros pre H sep es BP H1 H2 HC B Hne Hes.
  rewrite <- (app_nil_r (join _ _)). (* the text ends in `++ if trail then [NL] else []` at trail = false *)
  exact (NumpyScanProofs.numpy_docstring_read false pre H sep es BP H1 H2 HC B Hne Hes).
Qed.
Print Assumptions C01_numpy_docstring_roundtrip.
Example C01_numpy_docstring_example :
  NumpyScan.numpy_docstring ([NL] ++ s2l "Load the dataset." ++ [NL; NL] ++ s2l "Parameters" ++ [NL] ++ s2l "----------" ++ [NL]
                   ++ s2l "name : str" ++ [NL] ++ s2l "    dataset to load" ++ [NL] ++ s2l "batch_size : int")
  = (s2l "Load the dataset.", [(s2l "name", Some (s2l "str"), Some (s2l "dataset to load")); (s2l "batch_size", Some (s2l "int"), Some [])]).
Proof. exact NumpyScanProofs.numpy_docstring_example. Qed.

(* ---- the Google ROUND TRIP as text (Model/GoogleEmit.v: cdd/docstring/emit.py:docstring for the Google style -- "Args:" and one line per
   parameter joined to the description by header_args_footer_to_str -- compared with the real emitter each run; the parse side is
   C01_google_docstring_roundtrip with a line break after the last parameter).  For EVERY clean description (one paragraph, no
   colon, not blank at either end) and EVERY non-empty list of documented one-line entries of the domain: the text the emitter writes
   is given in closed form (C01_google_emit_text) and parsing it yields that description and exactly those entries. *)
From CDD Require GoogleEmit GoogleEmitProofs.
Theorem C01_google_emit_text : forall doc es, RestDocProofs.clean doc = true -> es <> [] ->
  forallb GoogleScanProofs.entry_ok1 es = true -> forallb GoogleEmitProofs.documented es = true ->
  GoogleEmit.emit_google doc es = doc ++ [NL; NL] ++ GoogleHead.ARGS ++ [NL] ++ join [NL] (map GoogleLineProofs.emit_entry es) ++ [NL].
Proof. exact GoogleEmitProofs.emit_google_text. Qed.
Print Assumptions C01_google_emit_text.
Theorem C01_google_emit_parse_roundtrip : forall doc es, RestDocProofs.clean doc = true -> es <> [] ->
  forallb GoogleScanProofs.entry_ok1 es = true -> forallb GoogleEmitProofs.documented es = true ->
  GoogleScan.google_docstring (GoogleEmit.emit_google doc es) = (doc, GoogleLine.PList (map GoogleLineProofs.read_entry es)).
Proof. exact GoogleEmitProofs.google_emit_parse_roundtrip. Qed.
Print Assumptions C01_google_emit_parse_roundtrip.
Example C01_google_emit_example :
  GoogleEmit.emit_google (s2l "Load the dataset.") [(s2l "name", Some (s2l "str"), Some (s2l "dataset to load")); (s2l "shuffle", None, Some (s2l "randomise the row order"))]
  = s2l "Load the dataset." ++ [NL; NL] ++ s2l "Args:" ++ [NL] ++ s2l "  name (str): dataset to load" ++ [NL] ++ s2l "  shuffle: randomise the row order" ++ [NL].
Proof. exact GoogleEmitProofs.google_emit_example. Qed.

(* ---- the NumPy ROUND TRIP as text (Model/NumpyEmit.v, compared with the real emitter each run): for EVERY clean description without
   "-" and EVERY non-empty list of typed one-line entries whose last written character is visible, the text the emitter writes is
   given in closed form and parsing it yields that description and exactly those entries. *)
From CDD Require NumpyEmit NumpyEmitProofs.
Theorem C01_numpy_emit_text : forall doc es, RestDocProofs.clean doc = true -> es <> [] ->
  forallb NumpyScanProofs.nentry_ok1 es = true -> forallb NumpyEmitProofs.ends_visible es = true ->
  NumpyEmit.emit_numpy doc (map NumpyEmitProofs.as_entry es)
  = doc ++ [NL; NL] ++ NumpyScan.NPARAMS ++ [NL] ++ join [NL] (concat (map NumpyLineProofs.emit_nentry es)) ++ [NL].
Proof. exact NumpyEmitProofs.emit_numpy_text. Qed.
Print Assumptions C01_numpy_emit_text.
Theorem C01_numpy_emit_parse_roundtrip : forall doc es, RestDocProofs.clean doc = true -> GoogleLineProofs.lacks NumpyScanProofs.DASH doc = true -> es <> [] ->
  forallb NumpyScanProofs.nentry_ok1 es = true -> forallb NumpyEmitProofs.ends_visible es = true ->
  NumpyScan.numpy_docstring (NumpyEmit.emit_numpy doc (map NumpyEmitProofs.as_entry es)) = (doc, map NumpyLineProofs.read_nentry es).
Proof. exact NumpyEmitProofs.numpy_emit_parse_roundtrip. Qed.
Print Assumptions C01_numpy_emit_parse_roundtrip.
Example C01_numpy_emit_example :
  NumpyEmit.emit_numpy (s2l "Load the dataset.") [(s2l "name", Some (s2l "str"), Some (s2l "dataset to load")); (s2l "batch_size", Some (s2l "int"), None)]
  = s2l "Load the dataset." ++ [NL; NL] ++ s2l "Parameters" ++ [NL] ++ s2l "----------" ++ [NL] ++ s2l "name : str" ++ [NL] ++ s2l "    dataset to load"
    ++ [NL] ++ s2l "batch_size : int" ++ [NL].
Proof. exact NumpyEmitProofs.numpy_emit_example. Qed.

(* ---- "defaults forming a suffix of the parameter list for Google / NumPy" (the quantifier's domain) is where the parser leaves
   defaults alone (Model/ForceDefaults.v: the sticky require_default flag of the Google / NumPy parse phase over interpolate_defaults,
   compared with the code through parse_docstring each run).  For EVERY parameter list whose announced defaults form a suffix, each
   parameter keeps exactly its own default (C01_suffix_defaults_are_kept); for ANY list, what comes out is suffix-shaped -- a parameter
   behind the first default that announces none is GIVEN one, the zero of its simple type or NoneStr (C01_forced_defaults_example:
   outside the domain the interface changes). *)
From CDD Require ForceDefaults ForceDefaultsProofs.
Theorem C01_suffix_defaults_are_kept : forall (D : Type) ps, ForceDefaultsProofs.suffix_shaped D false ps = true ->
  ForceDefaults.force_future D false ps = map (ForceDefaultsProofs.own D) ps.
Proof. intros D ps. apply ForceDefaultsProofs.shaped_defaults_are_kept. Qed.
Print Assumptions C01_suffix_defaults_are_kept.
Theorem C01_defaults_come_out_as_a_suffix : forall (D : Type) ps b,
  ForceDefaultsProofs.out_shaped D b (ForceDefaults.force_future D b ps) = true.
Proof.
  intro D. induction ps as [|p r IH]; intro b; [reflexivity|]. cbn [ForceDefaults.force_future ForceDefaultsProofs.out_shaped].
  assert (K : negb b || ForceDefaultsProofs.has_out D (ForceDefaults.interpolate D b p) = true).
  { unfold ForceDefaults.interpolate. destruct (snd p); [apply orb_true_r|]. destruct b; reflexivity. }
  rewrite K. apply IH.
Qed.
Print Assumptions C01_defaults_come_out_as_a_suffix.
Example C01_forced_defaults_example :
  ForceDefaults.force_future N false [(Some (s2l "int"), None); (Some (s2l "str"), Some 7%N); (Some (s2l "int"), None); (Some (s2l "List[str]"), None)]
  = [None; Some (ForceDefaults.FOwn N 7%N); Some (ForceDefaults.FZero N (s2l "int")); Some (ForceDefaults.FNoneStr N)].
Proof. exact ForceDefaultsProofs.force_example. Qed.
