(* emit_prop then parse_prop on the domain typ_ok.  Only the Literal case needs an argument: the pattern "a|b|c" splits back into the
   sorted members because none holds "|", and the type text rebuilt from them is not taken for an Optional because none holds "[".
   Then what C06 says of the emitted schema itself: the pattern accepts every member, a well-typed default validates. *)
From CDD Require Import PyStr PyStrFacts JsonSchema.
Open Scope N_scope.

Lemma emit_required p : snd (emit_prop p) = negb (is_optional (p_typ p)).
Proof. destruct p as [[b|ms|[]] doc d]; reflexivity. Qed.

Theorem required_iff ps n :
  In n (required_names ps) <-> exists p, In (n, p) ps /\ is_optional (p_typ p) = false.
Proof.
  unfold required_names. rewrite in_map_iff. split.
  - intros [[n' p] [Hn Hin]]. cbn in Hn. subst n'. apply filter_In in Hin as [Hin Hr]. cbn in Hr.
    rewrite emit_required in Hr. exists p. split; [exact Hin|]. destruct (is_optional (p_typ p)); [discriminate|reflexivity].
  - intros [p [Hin Ho]]. exists (n, p). split; [reflexivity|]. apply filter_In. split; [exact Hin|].
    cbn. rewrite emit_required, Ho. reflexivity.
Qed.

Lemma in_insert_sorted x y l : In y (insert_sorted x l) <-> y = x \/ In y l.
Proof.
  induction l as [|z r IH]; cbn [insert_sorted]; [split; intros [->|[]]; left; reflexivity|].
  destruct (str_leb x z); cbn [In]; [split; intros [H|H]; auto|]. split.
  - intros [H|[H|H]%IH]; auto.
  - intros [H|[H|H]]; [right; apply IH | | right; apply IH]; auto.
Qed.
Lemma in_sort_strs y l : In y (sort_strs l) <-> In y l.
Proof.
  induction l as [|z r IH]; cbn [sort_strs fold_right In]; [reflexivity|]. rewrite in_insert_sorted. fold (sort_strs r). rewrite IH.
  split; intros [H|H]; auto.
Qed.
Definition no_pipe (m : str) : Prop := ~ In 124 m.

Lemma member_ok_excludes m c : member_ok m = true -> member_char_ok c = false -> ~ In c m.
Proof.
  unfold member_ok. intros H Hc Hin. apply andb_true_iff in H as [_ H]. rewrite forallb_forall in H. rewrite (H c Hin) in Hc. discriminate.
Qed.
Lemma member_ok_no_pipe m : member_ok m = true -> no_pipe m.
Proof. intro H. apply (member_ok_excludes m 124 H). reflexivity. Qed.

Definition no_bracket (s : str) : Prop := ~ In 91 s.   (* the character [ *)
Lemma no_bracket_not_optional s : no_bracket s -> contains (s2l "Optional[") s = false.
Proof.
  intro H. destruct (contains (s2l "Optional[") s) eqn:E; [|reflexivity].
  apply contains_iff in E as [a [b ->]]. destruct H. apply in_or_app. right. apply in_or_app. left.
  (* the bracket is the ninth character of the token *) do 8 right. left. reflexivity.
Qed.
Lemma literal_not_optional body : no_bracket body ->
  contains (s2l "Optional[") (s2l "Literal[" ++ body ++ s2l "]") = false.
Proof.
  intro H.
  (* contains peels the eight characters of "Literal[", at none of which "Optional[" starts (evaluated); the rest holds no bracket *)
  change (s2l "Literal[" ++ body ++ s2l "]") with (76 :: 105 :: 116 :: 101 :: 114 :: 97 :: 108 :: 91 :: (body ++ [93])).
  assert (R : contains (s2l "Optional[") (body ++ [93]) = false).
  { apply no_bracket_not_optional. intro Hin. apply in_app_or in Hin as [Hin|[Hin|[]]]; [exact (H Hin) | discriminate]. }
  cbn [contains]. rewrite R. vm_compute. reflexivity.
Qed.

Lemma required_mem ps n p : NoDup (map fst ps) -> In (n, p) ps ->
  mem_str n (required_names ps) = negb (is_optional (p_typ p)).
Proof.
  intros Hnd Hin. apply eq_true_iff_eq. rewrite mem_str_In, required_iff. split.
  - intros [p' [Hin' Ho]]. rewrite (NoDup_keys_unique ps n p p' Hnd Hin Hin'), Ho. reflexivity.
  - intro H. exists p. split; [exact Hin|]. destruct (is_optional (p_typ p)); [discriminate|reflexivity].
Qed.

Lemma json_type2typ_base b : json_type2typ (json_name b) = Some (base_name b).
Proof. destruct b; reflexivity. Qed.

Lemma no_bracket_quote1 m : no_bracket m -> no_bracket (quote1 m).
Proof.
  unfold quote1, no_bracket. intros Hm Hin. cbn in Hin. destruct Hin as [Hin|Hin]; [discriminate|].
  apply in_app_or in Hin as [Hin|[Hin|[]]]; [exact (Hm Hin)|discriminate].
Qed.
Lemma no_bracket_join_quoted ms : Forall (fun m => no_bracket m) ms ->
  no_bracket (join (s2l ", ") (map quote1 ms)).
Proof.
  induction 1 as [|m r Hm _ IH]; [intros []|].
  destruct r as [|m2 r2].
  - cbn [map join]. apply no_bracket_quote1. exact Hm.
  - cbn [map]. rewrite join_cons_ne by discriminate.
    intro Hin. apply in_app_or in Hin as [Hin|Hin]; [exact (no_bracket_quote1 m Hm Hin)|].
    apply in_app_or in Hin as [[Hin|[Hin|[]]]|Hin]; [discriminate.. | exact (IH Hin)].
Qed.

(* PIPE is [124] *)
Lemma split_join_pipe l : l <> [] -> Forall no_pipe l -> split_char 124 (join PIPE l) = l.
Proof. exact (split_join 124 l). Qed.

Definition expected (p : param) : rparam :=
  mkRP (Some (render_typ (norm_typ (p_typ p)))) (j_description (fst (emit_prop p))) (j_default (fst (emit_prop p))) None.

Lemma lit_facts ms : negb (Nat.eqb (length ms) 0) && forallb member_ok ms = true ->
  sort_strs ms <> [] /\ Forall no_pipe (sort_strs ms) /\ Forall (fun m => no_bracket m) (sort_strs ms)
  /\ Forall (fun m => m <> []) (sort_strs ms).
Proof.
  intro H. apply andb_true_iff in H as [Hl Hm]. rewrite forallb_forall in Hm. split.
  - destruct ms as [|z r]; [discriminate|]. intro E. apply (in_nil (a := z)). rewrite <- E. apply in_sort_strs. left. reflexivity.
  - repeat split; apply Forall_forall; intros m Hin%in_sort_strs%Hm.
    + exact (member_ok_no_pipe m Hin).
    + exact (member_ok_excludes m 91 Hin eq_refl).
    + intros ->. discriminate Hin.
Qed.

(* Optional[...] is only a wrapper around what the emitter does with the type inside *)
Definition strip_opt (t : typ) : typ := match t with TOpt x => x | x => x end.
Lemma typ_ok_inner t : typ_ok t = true -> inner_ok (strip_opt t) = true.
Proof. destruct t; exact (fun H => H). Qed.
Lemma emit_prop_eta p :
  fst (emit_prop p) = mkProp (fst (emit_inner (strip_opt (p_typ p)))) (j_description (fst (emit_prop p)))
                             (snd (emit_inner (strip_opt (p_typ p)))) (j_default (fst (emit_prop p))).
Proof. destruct p as [[b|ms|[]] doc d]; reflexivity. Qed.

Lemma parse_emit_inner t n doc d req : inner_ok t = true ->
  parse_prop n (mkProp (fst (emit_inner t)) doc (snd (emit_inner t)) d) req
  = Some (mkRP (Some (if mem_str n req then render_typ (norm_typ t) else s2l "Optional[" ++ render_typ (norm_typ t) ++ s2l "]")) doc d None).
Proof.
  destruct t as [b|ms|t']; [intros _ | intro Hok | discriminate]; unfold parse_prop.
  - destruct (mem_str n req), b; reflexivity.
  - destruct (lit_facts ms Hok) as [Hne [Hnp [Hnb Hnn]]].
    cbn [emit_inner fst snd j_type j_pattern j_description j_default norm_typ render_typ].
    destruct (join PIPE (sort_strs ms)) as [|c0 pat0] eqn:Ep; [destruct (join_nonempty PIPE _ Hne Hnn Ep)|]. rewrite <- Ep.
    rewrite (split_join_pipe _ Hne Hnp), (literal_not_optional _ (no_bracket_join_quoted _ Hnb)).
    destruct (mem_str n req); reflexivity.
Qed.

Theorem roundtrip ps n p :
  NoDup (map fst ps) -> In (n, p) ps -> typ_ok (p_typ p) = true ->
  parse_prop n (fst (emit_prop p)) (required_names ps) = Some (expected p).
Proof.
  intros Hnd Hin Hok. unfold expected. rewrite emit_prop_eta at 1.
  rewrite (parse_emit_inner _ n _ _ _ (typ_ok_inner _ Hok)), (required_mem ps n p Hnd Hin).
  destruct (p_typ p); reflexivity.
Qed.

Theorem pattern_accepts_members ms m :
  negb (Nat.eqb (length ms) 0) && forallb member_ok ms = true -> In m ms ->
  pattern_accepts (join PIPE (sort_strs ms)) m = true.
Proof.
  intros Hok Hin. destruct (lit_facts ms Hok) as [Hne [Hnp _]].
  unfold pattern_accepts. rewrite (split_join_pipe _ Hne Hnp). apply existsb_exists. exists m.
  split; [apply in_sort_strs; exact Hin | apply contains_self].
Qed.

Lemma well_typed_strip t d : typ_ok t = true -> default_well_typed t d = true -> default_well_typed (strip_opt t) d = true.
Proof. destruct t as [| |[]]; first [exact (fun _ H => H) | discriminate]. Qed.

Lemma default_validates_inner t doc dd d :
  inner_ok t = true -> d <> DNone -> default_well_typed t d = true ->
  default_validates (mkProp (fst (emit_inner t)) doc (snd (emit_inner t)) dd) d = true.
Proof.
  intros Hok Hnn Hw. unfold default_validates. cbn [j_type j_pattern].
  destruct t as [b|ms|t']; [| |discriminate Hok]; cbn [emit_inner fst snd].
  - destruct b, d; first [discriminate Hw | contradiction | reflexivity].
  - destruct d; try discriminate Hw; [|contradiction]. rewrite str_eqb_refl.
    apply (pattern_accepts_members ms s Hok), mem_str_In, Hw.
Qed.
