From CDD Require Import PyStr PyStrFacts RestDocProofs GoogleLine GoogleLineProofs GoogleHead GoogleScan GoogleScanProofs GoogleEmit SectionProofs.
Open Scope N_scope.

(* with a description the last line ends in a visible character *)
Definition documented (e : entry) : bool := match snd e with Some _ => true | None => false end.

Lemma documented_tail e : entry_ok1 e = true -> documented e = true -> tail_ok (emit_entry e) = true.
Proof.
  destruct e as [[n t] [x|]]; [|discriminate]. intros ((_ & _ & [(_ & T & _)%doc_ok_spec _])%entry_ok_spec & _)%entry_ok1_spec _.
  cbn [emit_entry]. unfold emit_google_param. rewrite !app_assoc. apply tail_ok_app_r, T.
Qed.

Theorem emit_google_text_gen doc es e : head_ok doc = true -> tail_ok doc = true -> tail_ok (emit_entry e) = true ->
  emit_google doc (es ++ [e]) = doc ++ [NL; NL] ++ ARGS ++ [NL] ++ join [NL] (map emit_entry (es ++ [e])) ++ [NL].
Proof.
  intros D1 D2 Te.
  (* emit_google IS RestDocProofs.doc_frame without post-processing, by conversion *)
  change (emit_google doc (es ++ [e])) with (doc_frame (fun x => x) doc (google_args (es ++ [e]))). unfold google_args.
  rewrite match_nonempty by (destruct es; discriminate).
  replace (map _ (es ++ [e])) with (map emit_entry (es ++ [e])) by (apply map_ext; intros [[? ?] ?]; reflexivity).
  rewrite map_app. exact (frame_section doc ARGS (map emit_entry es) (emit_entry e) D1 D2 eq_refl Te).
Qed.

Theorem emit_google_text doc es : clean doc = true -> es <> [] -> forallb entry_ok1 es = true -> forallb documented es = true ->
  emit_google doc es = doc ++ [NL; NL] ++ ARGS ++ [NL] ++ join [NL] (map emit_entry es) ++ [NL].
Proof.
  intros Hd Hne H D. destruct (proj1 (clean_iff doc) Hd) as [D1 [D2 _]]. destruct (exists_last Hne) as [es' [e ->]].
  rewrite forallb_forall in H, D. assert (I : In e (es' ++ [e])) by (apply in_or_app; right; left; reflexivity).
  exact (emit_google_text_gen doc es' e D1 D2 (documented_tail e (H e I) (D e I))).
Qed.

Theorem google_emit_parse_roundtrip doc es :
  clean doc = true -> es <> [] -> forallb entry_ok1 es = true -> forallb documented es = true ->
  google_docstring (emit_google doc es) = (doc, PList (map read_entry es)).
Proof.
  intros Hd Hne H D. rewrite (emit_google_text doc es Hd Hne H D). destruct (proj1 (clean_iff doc) Hd) as [D1 [D2 D3]].
  (* D3 : no_colon doc stands where lacks GCOLON doc is asked for: the same predicate, RestDoc.COLON and GoogleLine.GCOLON both being 58 *)
  exact (google_docstring_read true [] doc [NL; NL] es eq_refl D1 D2 D3 eq_refl Hne H).
Qed.

Example google_emit_example :
  emit_google (s2l "Load the dataset.") [(s2l "name", Some (s2l "str"), Some (s2l "dataset to load")); (s2l "shuffle", None, Some (s2l "randomise the row order"))]
  = s2l "Load the dataset." ++ [NL; NL] ++ s2l "Args:" ++ [NL] ++ s2l "  name (str): dataset to load" ++ [NL] ++ s2l "  shuffle: randomise the row order" ++ [NL].
Proof. vm_compute. reflexivity. Qed.
