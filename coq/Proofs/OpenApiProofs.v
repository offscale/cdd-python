(* The document is closed because every step of run keeps an invariant (Inv: what the path items and request bodies refer to is
   defined) and the refs of the rendered document are those the invariant speaks of (refs_render).  At the end the paths of a single entry,
   for C16_crud_exact. *)
From Coq Require Import Lia.
From CDD Require Import PyStr PyStrFacts OpenApi.
Open Scope N_scope.

Lemma refs_render_pitem p : refs (render_pitem p) = pitem_refs p.
Proof.
  destruct p as [n|n id g d]; [reflexivity|].
  destruct g, d; reflexivity.
Qed.

Lemma refs_request_body n : refs (request_body n) = [schema_ref n].
Proof. reflexivity. Qed.

(* f gives no bare string: under a key spelled "$ref" a string would itself count as a reference *)
Lemma refs_obj_map {A} (f : A -> json) (l : list (str * A)) :
  (forall a, match f a with JS _ => False | _ => True end) ->
  refs (JO (map (fun kv => (fst kv, f (snd kv))) l)) = flat_map (fun kv => refs (f (snd kv))) l.
Proof.
  intro Hf. induction l as [|[k a] r IH]; [reflexivity|].
  cbn [map fst snd flat_map]. cbn [refs] in *. specialize (Hf a).
  destruct (f a); try contradiction; cbn [app]; f_equal; exact IH.
Qed.

Lemma Forall_dset {V} (P : V -> Prop) k v d :
  P v -> Forall (fun x => P (snd x)) d -> Forall (fun x => P (snd x)) (dset k v d).
Proof.
  intros Hv. induction 1 as [|[a w] r Hw Hr IH]; cbn; [repeat constructor; exact Hv|].
  destruct (str_eqb k a); constructor; assumption.
Qed.
Lemma keys_dset {V} k (v : V) d : keys (dset k v d) = if mem_str k (keys d) then keys d else keys d ++ [k].
Proof.
  unfold keys, mem_str. induction d as [|[a w] r IH]; cbn; [reflexivity|].
  destruct (str_eqb k a); cbn; [reflexivity|]. rewrite IH. destruct (existsb (str_eqb k) (map fst r)); reflexivity.
Qed.
Lemma keys_dset_mono {V} k (v : V) d a : In a (keys d) -> In a (keys (dset k v d)).
Proof. rewrite keys_dset. destruct (mem_str k (keys d)); [|rewrite in_app_iff]; auto. Qed.
Lemma keys_dset_has {V} k (v : V) d : In k (keys (dset k v d)).
Proof. rewrite keys_dset. destruct (mem_strP k (keys d)); [|rewrite in_app_iff; cbn]; auto. Qed.

Definition refs_ok (st : state) (p : pitem) : Prop := Forall (defined st) (pitem_refs p).
Definition Inv (st : state) : Prop :=
  Forall (fun kp => refs_ok st (snd kp)) (st_paths st) /\
  Forall (fun kb => defined st (schema_ref (snd kb))) (st_bodies st) /\
  In server_error (keys (st_schemas st)).

Lemma schema_defined st n : In n (keys (st_schemas st)) -> defined st (schema_ref n).
Proof. left. eauto. Qed.

Lemma step_mono st e r : defined st r -> defined (step st e) r.
Proof.
  intros [[n [-> H]]|[n [-> H]]]; [left|right]; exists n; (split; [reflexivity|]); unfold step; cbn [st_schemas st_bodies].
  - apply keys_dset_mono, H.
  - destruct (has "C" (e_crud e)); [apply keys_dset_mono|]; exact H.
Qed.
Lemma step_defines st e :
  defined (step st e) (schema_ref (e_name e)) /\
  (has "C" (e_crud e) = true -> defined (step st e) (body_ref (e_name e))).
Proof.
  split; [apply schema_defined, keys_dset_has|]. intro Hc. right. exists (e_name e). split; [reflexivity|].
  unfold step. cbn [st_bodies]. rewrite Hc. apply keys_dset_has.
Qed.

Lemma step_inv st e : Inv st -> Inv (step st e).
Proof.
  intros [Hp [Hb Hse]]. destruct (step_defines st e) as [Dn Db].
  assert (Hse' : In server_error (keys (st_schemas (step st e)))) by (apply keys_dset_mono, Hse).
  pose proof (schema_defined _ _ Hse') as Dse.
  apply (Forall_impl (fun kp => refs_ok (step st e) (snd kp))) in Hp; [|intros kp; apply Forall_impl, step_mono].
  apply (Forall_impl (fun kb => defined (step st e) (schema_ref (snd kb)))) in Hb; [|intros kb; apply step_mono].
  assert (NewI : forall g d, refs_ok (step st e) (PItem (e_name e) (e_id e) g d))
    by (intros [] d; unfold refs_ok; cbn [pitem_refs]; auto using Forall_cons, Forall_nil).
  assert (NewC : has "C" (e_crud e) = true -> refs_ok (step st e) (PCollection (e_name e)))
    by (intro Hc; unfold refs_ok; cbn [pitem_refs]; auto using Forall_cons, Forall_nil).
  repeat split; [| |exact Hse']; unfold step at 2; cbn [st_paths st_bodies].
  - destruct (has "C" (e_crud e)), (crud_valid (e_crud e)); repeat apply Forall_dset; auto.
  - destruct (has "C" (e_crud e)); [apply (Forall_dset (fun n => defined (step st e) (schema_ref n)))|]; assumption.
Qed.

Lemma run_inv ses entries : Inv (run ses entries).
Proof.
  unfold run. assert (H0 : Inv (init ses)) by (repeat split; [constructor | constructor | left; reflexivity]).
  revert H0. generalize (init ses). induction entries as [|e r IH]; intros st H; cbn [fold_left]; [exact H|].
  apply IH, step_inv, H.
Qed.

Definition schemas_ref_free (st : state) : Prop := forall ks, In ks (st_schemas st) -> refs (JO (snd ks)) = [].

Lemma refs_render st : schemas_ref_free st ->
  refs (render st) = flat_map (fun kb => [schema_ref (snd kb)]) (st_bodies st)
                     ++ flat_map (fun kp => pitem_refs (snd kp)) (st_paths st).
Proof.
  intro Hfree.
  (* the fixed keys of the document hold no reference: what is left are its three mappings, in this order *)
  change (refs (render st)) with ((refs (JO (map (fun kb => (fst kb, request_body (snd kb))) (st_bodies st)))
                                   ++ refs (JO (map (fun ks => (fst ks, JO (snd ks))) (st_schemas st))) ++ [])
                                  ++ refs (JO (map (fun kp => (fst kp, render_pitem (snd kp))) (st_paths st))) ++ []).
  rewrite !refs_obj_map by (intros []; exact I).
  rewrite (flat_map_nil _ _ Hfree), (flat_map_ext _ _ (fun kp => refs_render_pitem (snd kp))), !app_nil_r. reflexivity.
Qed.

Lemma inv_closed st : Inv st -> schemas_ref_free st -> forall r, In r (refs (render st)) -> defined st r.
Proof.
  intros [Hp [Hb _]] Hfree r Hr. rewrite (refs_render _ Hfree) in Hr. rewrite Forall_forall in Hp, Hb.
  apply in_app_or in Hr as [Hr|Hr]; apply in_flat_map in Hr as [x [Hin Hx]].
  - destruct Hx as [<-|[]]. apply Hb, Hin.
  - apply (proj1 (Forall_forall (defined st) _) (Hp x Hin)), Hx.
Qed.

Definition ops_of (p : pitem) : list string :=
  match p with
  | PCollection _ => ["post"%string]
  | PItem _ _ g d => (if g then ["get"%string] else []) ++ (if d then ["delete"%string] else [])
  end.

Lemma item_route_longer route id : item_route route id <> route.
Proof.
  unfold item_route. intro H. apply (f_equal (@length char)) in H.
  rewrite !app_length in H. cbn [length L s2l] in H. lia.
Qed.

Lemma single_entry_paths ses e :
  crud_valid (e_crud e) = true ->
  st_paths (run ses [e]) =
    (if has "C" (e_crud e) then [(e_route e, PCollection (e_name e))] else [])
    ++ [(item_route (e_route e) (e_id e), PItem (e_name e) (e_id e) (has "R" (e_crud e)) (has "D" (e_crud e)))].
Proof.
  intro Hv. unfold run, init. cbn [fold_left]. unfold step. cbn [st_paths]. rewrite Hv.
  destruct (has "C" (e_crud e)); cbn [dset app]; [|reflexivity].
  rewrite (str_eqb_neq _ _ (item_route_longer (e_route e) (e_id e))). reflexivity.
Qed.
