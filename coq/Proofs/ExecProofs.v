From CDD Require Import Norm Exec.
Open Scope N_scope.

Lemma optional_not_required p : t_opt (fst p) = true -> a_required (argparse_action p) = false.
Proof. destruct p as [t d]. cbn. intros ->. reflexivity. Qed.
Lemma action_default p : a_default (argparse_action p) = described_default (snd p).
Proof. destruct p as [t d]. reflexivity. Qed.
