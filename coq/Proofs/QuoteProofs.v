(* quote / unquote: what is written in quotes is read back without them -- unless the text looked quoted already. *)
From Coq Require Import Lia.
From CDD Require Import PyStr PyStrFacts DefaultDoc Quote.

Definition bare (s : str) : bool :=
  match s with
  | [] => false
  | c :: _ => negb (Nat.ltb 1 (length s) && (match last_opt s with Some l => c =? l | None => false end) && ((c =? SQ) || (c =? DQ)))
  end.

Lemma quote_bare s : bare s = true -> quote s = [DQ] ++ s ++ [DQ].
Proof. destruct s as [|c r]; [discriminate|]. unfold bare, quote. intro H. apply negb_true_iff in H. rewrite H. reflexivity. Qed.

Lemma unquote_wrapped q s : q = DQ \/ q = SQ -> unquote ([q] ++ s ++ [q]) = s.
Proof.
  intro Hq. unfold unquote. change ([q] ++ s ++ [q]) with ((q :: s) ++ [q]). rewrite !endswith_snoc.
  rewrite (proj2 (Nat.ltb_lt 1 _)) by (rewrite app_length; cbn; lia).
  replace (_ || _) with true by (destruct Hq as [-> | ->]; reflexivity). apply (removelast_last s).
Qed.

Example quoted_text_loses_its_quotes :
  quote (s2l "'q'") = s2l "'q'" /\ unquote (quote (s2l "'q'")) = s2l "q" /\ bare (s2l "'q'") = false.
Proof. repeat split. Qed.

Lemma unquote_short s : (length s <= 1)%nat -> unquote s = s.
Proof. intro H. unfold unquote. rewrite (proj2 (Nat.ltb_ge 1 _)) by lia. reflexivity. Qed.
