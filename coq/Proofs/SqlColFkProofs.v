From CDD Require Import PyStr SqlCol.
Open Scope N_scope.

Definition target_ok (f : str) : bool := forallb (fun c => negb (c =? RB)) f.
