From Coq Require Import List Arith Lia.
Import ListNotations.
From CDD Require Import FuncSig.

Section Sig.
  Variable name : Type.
  Variable D : Type.
  Variable None_ : D.

  Lemma combine_app {A B} (l1 l2 : list A) (r1 r2 : list B) :
    length l1 = length r1 -> combine (l1 ++ l2) (r1 ++ r2) = combine l1 r1 ++ combine l2 r2.
  Proof.
    revert r1; induction l1 as [|a l1 IH]; intros [|b r1] H; cbn in *; try discriminate; [reflexivity|].
    f_equal. apply IH. lia.
  Qed.

  Theorem defaults_alignment args defaults :
    length defaults <= length args ->
    parse_pairs name D (args, defaults) = python_pairs name D (args, defaults).
  Proof.
    intro H. unfold parse_pairs, python_pairs.
    set (k := length args - length defaults).
    rewrite <- (firstn_skipn k args) at 1.
    apply combine_app. rewrite firstn_length, repeat_length. lia.
  Qed.

  Theorem function_roundtrip ps :
    parse_pairs name D (emit_sig name D None_ ps)
    = map (fun p => (fst p, Some (match snd p with Some d => d | None => None_ end))) ps.
  Proof.
    unfold parse_pairs, emit_sig. rewrite !map_length, Nat.sub_diag. cbn [repeat app].
    induction ps as [|[n d] r IH]; cbn; [reflexivity|]. f_equal. exact IH.
  Qed.

  Corollary function_roundtrip_nth ps i n d :
    nth_error ps i = Some (n, Some d) ->
    nth_error (parse_pairs name D (emit_sig name D None_ ps)) i = Some (n, Some d).
  Proof. intro H. rewrite function_roundtrip. rewrite nth_error_map, H. reflexivity. Qed.

  Theorem class_roundtrip ps : parse_class name D (emit_class name D ps) = ps.
  Proof. reflexivity. Qed.
End Sig.
