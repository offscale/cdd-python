(* Model/RestDoc.v, the ReST docstring.  In this order: the text predicates of the theorems' domains with their facts; the scanner
   (it loses no text: flat .. finish_flat; what it cuts is decided by the text from the last colon on: tail_key .. scan_lines); the
   line parser on one token line; the canonical text of the property theorems (render); the one parse theorem, parse_canon_text
   (Section Canon), for every canonical text -- whatever the token that introduces a name and the blank separators; the emitter: header_args_footer_to_str on a header and a section (haf_section), the frame all emitters share
   (doc_frame), the section as blocks of lines (blocks_text, canon_lines_text), frame_is_render; the round trip; emit_types off as emit_types on without the types (drop_typ). *)
From Coq Require Import Lia.
From CDD Require Import PyStr PyStrFacts DocSplit RestDoc.

Definition no_colon (s : str) : bool := forallb (fun c => negb (c =? COLON)) s.
Definition blank (s : str) : bool := forallb is_space s.
Definition head_ok (d : str) : bool := match d with c :: _ => negb (is_space c) | [] => false end.
Definition tail_ok (s : str) : bool := head_ok (rev s).
Definition clean (d : str) : bool := head_ok d && head_ok (rev d) && no_colon d.

Lemma clean_iff d : clean d = true <-> head_ok d = true /\ tail_ok d = true /\ no_colon d = true.
Proof. unfold clean, tail_ok. rewrite !andb_true_iff. tauto. Qed.

Lemma no_colon_app a b : no_colon (a ++ b) = no_colon a && no_colon b.
Proof. apply forallb_app. Qed.
Lemma no_colon_not_in d : no_colon d = true -> ~ In COLON d.
Proof. apply not_in_forallb. Qed.
Lemma blank_no_colon s : blank s = true -> no_colon s = true.
Proof.
  unfold blank, no_colon. rewrite !forallb_forall. intros H c Hc. specialize (H c Hc).
  destruct (N.eqb_spec c COLON) as [->|]; [discriminate H | reflexivity].
Qed.
Lemma blank_rev s : blank (rev s) = blank s.
Proof. apply forallb_rev. Qed.
Lemma blank_app a b : blank a = true -> blank b = true -> blank (a ++ b) = true.
Proof. intros Ha Hb. unfold blank in *. rewrite forallb_app, Ha, Hb. reflexivity. Qed.

Lemma head_ok_app a b : head_ok a = true -> head_ok (a ++ b) = true.
Proof. destruct a; [discriminate | intro H; exact H]. Qed.
Lemma head_ok_ne a : head_ok a = true -> a <> [].
Proof. destruct a; discriminate. Qed.
Lemma head_ok_not_space c r : head_ok (c :: r) = true -> is_space c = false.
Proof. cbn. intro H. apply negb_true_iff in H. exact H. Qed.
Lemma nonspace_not_nl c : is_space c = false -> (c =? NL) = false.
Proof. intro H. destruct (N.eqb_spec c NL) as [->|]; [vm_compute in H; discriminate | reflexivity]. Qed.
Lemma isspace_head_ok s : head_ok s = true -> isspace s = false.
Proof. destruct s as [|c r]; [discriminate|]. intro H. apply head_ok_not_space in H. cbn. rewrite H. reflexivity. Qed.

Lemma tail_ok_app_r a b : tail_ok b = true -> tail_ok (a ++ b) = true.
Proof. unfold tail_ok. rewrite rev_app_distr. apply head_ok_app. Qed.
Lemma tail_ok_join_snoc sep (L : list str) l : tail_ok l = true -> tail_ok (join sep (L ++ [l])) = true.
Proof. intro H. destruct (join_snoc sep L l) as [z ->]. apply tail_ok_app_r, H. Qed.
Lemma tail_ok_not_ends_nl s : tail_ok s = true -> ends_nl s = false.
Proof.
  unfold tail_ok, ends_nl. rewrite last_opt_rev. destruct (rev s) as [|c r]; [discriminate|]. intro H.
  apply head_ok_not_space in H. apply nonspace_not_nl, H.
Qed.

Definition ends_ok (x : str) : Prop := head_ok x = true /\ tail_ok x = true.
Lemma join_ends_ok sep : forall l, l <> [] -> Forall ends_ok l -> ends_ok (join sep l).
Proof.
  induction l as [|x [|y r] IH]; intros Hne H; [contradiction | exact (Forall_inv H)|].
  inversion H as [|? ? [H1 H2] Hr]. destruct (IH ltac:(discriminate) Hr) as [_ I2].
  rewrite join_cons_ne by discriminate. split; [apply head_ok_app, H1 | apply tail_ok_app_r, tail_ok_app_r, I2].
Qed.

Lemma lstrip_blank_app s d : blank s = true -> lstrip (s ++ d) = lstrip d.
Proof. intro H. rewrite !lstrip_dropwhile. apply dropwhile_app, H. Qed.
Lemma lstrip_head_ok d : head_ok d = true -> lstrip d = d.
Proof. destruct d as [|c r]; cbn; [discriminate|]. intro H. apply negb_true_iff in H. rewrite H. reflexivity. Qed.
Lemma rstrip_blank_suffix x b : tail_ok x = true -> blank b = true -> rstrip (x ++ b) = x.
Proof.
  intros T B. unfold rstrip. rewrite rev_app_distr, lstrip_blank_app by (rewrite blank_rev; exact B).
  rewrite lstrip_head_ok by exact T. apply rev_involutive.
Qed.
Lemma strip_padded s1 d s2 : blank s1 = true -> blank s2 = true -> head_ok d = true -> tail_ok d = true -> strip (s1 ++ d ++ s2) = d.
Proof.
  intros B1 B2 H1 H2. unfold strip. rewrite lstrip_blank_app by exact B1. rewrite lstrip_head_ok by (apply head_ok_app, H1).
  apply rstrip_blank_suffix; assumption.
Qed.
Lemma strip_lpadded s d : blank s = true -> head_ok d = true -> tail_ok d = true -> strip (s ++ d) = d.
Proof. intros B H1 H2. rewrite <- (app_nil_r d) at 1. exact (strip_padded s d [] B eq_refl H1 H2). Qed.
Lemma strip_rpadded d s : blank s = true -> head_ok d = true -> tail_ok d = true -> strip (d ++ s) = d.
Proof. exact (strip_padded [] d s eq_refl). Qed.

(* the text a scanner state holds: the closed segments, then the open stack *)
Definition flat (st : list seg * str) : str := concat (map snd (fst st)) ++ snd st.

Lemma tok_loop_flat : forall toks snap sc stack, flat (tok_loop toks snap sc stack) = flat (sc, stack).
Proof.
  induction toks as [|t r IH]; intros snap sc stack; cbn [tok_loop]; [reflexivity|].
  destruct (ends_with snap t); [|apply IH].
  rewrite IH. unfold flat. cbn [fst snd]. rewrite map_app, concat_app. cbn [map concat]. rewrite app_nil_r, <- app_assoc. f_equal.
  set (n := (length stack - length t)%nat).
  rewrite firstn_length, (Nat.min_l n) by (unfold n; lia).
  rewrite (firstn_all2 (n := length t)) by (rewrite skipn_length; unfold n; lia).
  apply firstn_skipn.
Qed.

Lemma step_flat tokens st c : flat (step tokens st c) = flat st ++ [c].
Proof. destruct st as [sc stack]. unfold step. rewrite tok_loop_flat. unfold flat. cbn. rewrite app_assoc. reflexivity. Qed.

Lemma scan_chars_flat tokens : forall s st, flat (scan_chars tokens s st) = flat st ++ s.
Proof.
  induction s as [|c s IH]; intro st; cbn [scan_chars fold_left]; [rewrite app_nil_r; reflexivity|].
  fold (scan_chars tokens s (step tokens st c)). rewrite IH, step_flat, <- app_assoc. reflexivity.
Qed.

Lemma finish_flat tokens st : concat (map snd (finish_scan tokens st)) = flat st.
Proof.
  destruct st as [sc stack]. unfold finish_scan, flat. cbn [fst snd]. destruct stack as [|c r]; [rewrite app_nil_r; reflexivity|].
  rewrite map_app, concat_app. cbn. rewrite app_nil_r. reflexivity.
Qed.

(* the text from the last colon on: it decides which token, if any, ends a stack *)
Fixpoint tail_key (s : str) : option str :=
  match s with
  | [] => None
  | c :: r => match tail_key r with
              | Some x => Some x
              | None => if c =? COLON then Some (c :: r) else None
              end
  end.
Definition advance1 (key : option str) (c : char) : option str :=
  if c =? COLON then Some [c] else option_map (fun x => x ++ [c]) key.
Definition advance (key : option str) (w : str) : option str := fold_left advance1 w key.

Lemma tail_key_nocolon s : no_colon s = true -> tail_key s = None.
Proof.
  induction s as [|c r IH]; cbn; [reflexivity|]. intro H. apply andb_true_iff in H as [H1 H2].
  rewrite IH by exact H2. apply negb_true_iff in H1. rewrite H1. reflexivity.
Qed.

Lemma tail_key_app a b : tail_key (a ++ b) = match tail_key b with Some x => Some x | None => option_map (fun x => x ++ b) (tail_key a) end.
Proof.
  induction a as [|c r IH]; cbn [app tail_key].
  - destruct (tail_key b); reflexivity.
  - rewrite IH. destruct (tail_key b) as [x|]; [reflexivity|].
    destruct (tail_key r) as [y|]; cbn; [reflexivity|]. destruct (c =? COLON); reflexivity.
Qed.

Lemma tail_key_snoc s c : tail_key (s ++ [c]) = advance1 (tail_key s) c.
Proof. rewrite tail_key_app. unfold advance1. cbn. destruct (c =? COLON); reflexivity. Qed.

Lemma tail_key_advance : forall w st, tail_key (st ++ w) = advance (tail_key st) w.
Proof.
  induction w as [|c w IH]; intro st; cbn [advance fold_left]; [rewrite app_nil_r; reflexivity|].
  change (st ++ c :: w) with (st ++ [c] ++ w). rewrite app_assoc, IH, tail_key_snoc. reflexivity.
Qed.
Lemma advance_app key a b : advance key (a ++ b) = advance (advance key a) b.
Proof. unfold advance. apply fold_left_app. Qed.

Lemma ends_with_suffix s tok : ends_with s tok = true -> exists p, s = p ++ tok.
Proof.
  unfold ends_with. intro H. apply str_eqb_eq in H.
  exists (rev (skipn (length tok) (rev s))).
  rewrite <- (rev_involutive tok) at 2. rewrite <- H, <- rev_app_distr, firstn_skipn, rev_involutive. reflexivity.
Qed.
Lemma ends_with_app s tok : ends_with (s ++ tok) tok = true.
Proof.
  unfold ends_with. rewrite rev_app_distr, <- rev_length, firstn_app_length. apply str_eqb_refl.
Qed.

Lemma token_shape t : In t all_tokens -> exists l, t = COLON :: l /\ no_colon l = true.
Proof.
  intro H. assert (C : forallb (fun t => match t with c :: l => (c =? COLON) && no_colon l | [] => false end) all_tokens = true) by reflexivity.
  rewrite forallb_forall in C. specialize (C t H). destruct t as [|c l]; [discriminate C|].
  apply andb_true_iff in C as [C1 C2]. apply N.eqb_eq in C1. subst c. eauto.
Qed.

Lemma tail_key_token t : In t all_tokens -> tail_key t = Some t.
Proof. intro Ht. destruct (token_shape t Ht) as [l [-> Hl]]. cbn [tail_key]. rewrite (tail_key_nocolon l Hl). reflexivity. Qed.

Lemma ends_with_key s t : In t all_tokens -> ends_with s t = true -> tail_key s = Some t.
Proof.
  intros Ht H. destruct (ends_with_suffix _ _ H) as [p ->]. rewrite tail_key_app, (tail_key_token t Ht). reflexivity.
Qed.

(* a scanner state with its type written out, so that [rewrite] finds it whatever the two components are *)
Local Notation "<< a , b >>" := (@pair (list seg) str a b).
(* [quiet_key (tail_key st)]: no token ends the stack st.  [keys_ok (tail_key st) w]: the scanner cuts nowhere while reading w onto st *)
Definition quiet_key (o : option str) : bool := match o with Some x => negb (mem_str x all_tokens) | None => true end.
Fixpoint keys_ok (key : option str) (w : str) : bool :=
  match w with [] => true | c :: r => quiet_key (advance1 key c) && keys_ok (advance1 key c) r end.

Lemma tok_loop_quiet toks snap sc st : (forall t, In t toks -> ends_with snap t = false) -> tok_loop toks snap sc st = <<sc, st>>.
Proof.
  induction toks as [|t r IH]; cbn [tok_loop]; intro H; [reflexivity|].
  rewrite (H t (or_introl eq_refl)). apply IH. intros x Hx. apply H. right. exact Hx.
Qed.

Lemma step_quiet sc st c : quiet_key (tail_key (st ++ [c])) = true -> step all_tokens <<sc, st>> c = <<sc, st ++ [c]>>.
Proof.
  intro H. apply tok_loop_quiet. intros t Ht. destruct (ends_with (st ++ [c]) t) eqn:E; [|reflexivity].
  rewrite (ends_with_key _ t Ht E) in H. cbn [quiet_key] in H. apply negb_true_iff in H. apply mem_str_In in Ht. congruence.
Qed.

Lemma scan_chars_cons tk c w st : scan_chars tk (c :: w) st = scan_chars tk w (step tk st c).
Proof. reflexivity. Qed.
Lemma scan_chars_app tk a b st : scan_chars tk (a ++ b) st = scan_chars tk b (scan_chars tk a st).
Proof. unfold scan_chars. apply fold_left_app. Qed.

Lemma scan_keys : forall w sc st, keys_ok (tail_key st) w = true -> scan_chars all_tokens w <<sc, st>> = <<sc, st ++ w>>.
Proof.
  induction w as [|c w IH]; intros sc st H; [cbn; rewrite app_nil_r; reflexivity|].
  cbn [keys_ok] in H. rewrite <- tail_key_snoc in H. apply andb_true_iff in H as [H1 H2].
  rewrite scan_chars_cons, (step_quiet sc st c H1), (IH sc _ H2), <- app_assoc. reflexivity.
Qed.

Lemma keys_ok_app key a b : keys_ok key (a ++ b) = keys_ok key a && keys_ok (advance key a) b.
Proof.
  revert key. induction a as [|c a IH]; intro key; cbn [app keys_ok advance fold_left]; [reflexivity|].
  rewrite IH, andb_assoc. reflexivity.
Qed.
(* key is no prefix of a token: it stays quiet until the next colon *)
Definition dead (key : option str) : bool :=
  match key with Some x => forallb (fun t => negb (startswith x t)) all_tokens | None => true end.

Lemma dead_advance1 key (c : char) : dead key = true -> (c =? COLON) = false -> dead (advance1 key c) = true.
Proof.
  unfold advance1. intros H ->. destruct key as [x|]; [|reflexivity]. cbn [option_map dead] in *. rewrite forallb_forall in *.
  intros t Ht. specialize (H t Ht). destruct (startswith (x ++ [c]) t) eqn:E; [|reflexivity].
  rewrite (startswith_snoc x c t E) in H. discriminate H.
Qed.
Lemma dead_quiet key : dead key = true -> quiet_key key = true.
Proof.
  destruct key as [x|]; [|reflexivity]. cbn [dead quiet_key]. intro H. destruct (mem_strP x all_tokens) as [Hx|]; [|reflexivity].
  rewrite forallb_forall in H. specialize (H x Hx). rewrite startswith_refl in H. discriminate H.
Qed.

Lemma keys_ok_dead : forall w key, dead key = true -> no_colon w = true -> keys_ok key w = true.
Proof.
  induction w as [|c w IH]; intros key Hd Hn; [reflexivity|]. apply andb_true_iff in Hn as [Hc Hn]. apply negb_true_iff in Hc.
  pose proof (dead_advance1 key c Hd Hc) as Hd'. cbn [keys_ok]. rewrite (dead_quiet _ Hd'). exact (IH _ Hd' Hn).
Qed.

Lemma keys_after_colon_sp key rest : no_colon rest = true -> keys_ok key (COLON :: SP :: rest) = true.
Proof.
  (* ":" and ": " are no tokens, by evaluation; after them the key is dead *)
  intro H. change (keys_ok (Some [COLON; SP]) rest = true). apply keys_ok_dead; [reflexivity | exact H].
Qed.

(* NoDup: a token listed twice would fire twice, and the second firing cuts off an empty segment *)
Lemma tok_loop_fire st t sc : forall toks, NoDup toks -> In t toks -> (forall x, In x toks -> ends_with (st ++ t) x = true -> x = t) ->
  tok_loop toks (st ++ t) sc (st ++ t) = <<sc ++ [(negb (Nat.eqb (length sc) 0), st)], t>>.
Proof.
  induction toks as [|x r IH]; intros Hnd Hin Huniq; [destruct Hin|].
  inversion Hnd as [|? ? Hx Hr]. cbn [tok_loop]. destruct (ends_with (st ++ t) x) eqn:E.
  - rewrite (Huniq x (or_introl eq_refl) E) in *.
    rewrite app_length, Nat.add_sub, firstn_app_length, skipn_app_length, firstn_all.
    apply tok_loop_quiet. intros y Hy. destruct (ends_with (st ++ t) y) eqn:Ey; [|reflexivity].
    destruct Hx. rewrite <- (Huniq y (or_intror Hy) Ey). exact Hy.
  - destruct Hin as [->|Hin]; [rewrite ends_with_app in E; discriminate E|]. apply IH; auto. intros y Hy. apply Huniq. right. exact Hy.
Qed.

Lemma tokens_nodup : NoDup all_tokens.
Proof. repeat (apply NoDup_cons; [apply existsb_str_false; reflexivity|]). apply NoDup_nil. Qed.

Lemma token_prefixes_quiet key t : In t all_tokens -> keys_ok key (removelast t) = true.
Proof.
  intro H. assert (C : forallb (fun t => keys_ok None (removelast t)) all_tokens = true) by reflexivity.
  rewrite forallb_forall in C. specialize (C t H).
  (* the colon at the head of the token resets the key *)
  destruct (token_shape t H) as [[|c l] [-> _]]; [reflexivity | exact C].
Qed.

Lemma scan_token t sc st : In t all_tokens ->
  scan_chars all_tokens t <<sc, st>> = <<sc ++ [(negb (Nat.eqb (length sc) 0), st)], t>>.
Proof.
  intro Ht. assert (Hne : t <> []) by (destruct (token_shape t Ht) as [l [-> _]]; discriminate).
  (* COLON is only the default [last] asks for *)
  rewrite (app_removelast_last COLON Hne) at 1. rewrite scan_chars_app, scan_keys by (apply token_prefixes_quiet, Ht).
  cbn [scan_chars fold_left step]. rewrite <- app_assoc, <- (app_removelast_last COLON Hne).
  apply tok_loop_fire; [exact tokens_nodup | exact Ht|]. intros x Hx E.
  pose proof (ends_with_key _ _ Hx E) as K. rewrite (ends_with_key _ _ Ht (ends_with_app st t)) in K. injection K. auto.
Qed.

(* a line: a token and the text up to the next token *)
Definition cat (tb : str * str) : str := fst tb ++ snd tb.
Definition line_ok (tb : str * str) : Prop := In (fst tb) all_tokens /\ keys_ok (Some (fst tb)) (snd tb) = true.
Definition seg_of (tb : str * str) : seg := (true, cat tb).

Lemma scan_line tb sc st : line_ok tb ->
  scan_chars all_tokens (cat tb) <<sc, st>> = <<sc ++ [(negb (Nat.eqb (length sc) 0), st)], cat tb>>.
Proof.
  intros [Ht Hb]. unfold cat. rewrite scan_chars_app, (scan_token _ sc st Ht). apply scan_keys. rewrite (tail_key_token _ Ht). exact Hb.
Qed.

Lemma finish_token_line sc tb : In (fst tb) all_tokens -> finish_scan all_tokens <<sc, cat tb>> = sc ++ [seg_of tb].
Proof.
  intro Ht. unfold finish_scan, seg_of.
  assert (F : existsb (fun t => startswith t (cat tb)) all_tokens = true).
  { apply existsb_exists. exists (fst tb). split; [exact Ht | apply startswith_app]. }
  destruct (token_shape _ Ht) as [l [E _]].
  destruct (cat tb) as [|c0 r0] eqn:E3; [unfold cat in E3; rewrite E in E3; discriminate E3|]. rewrite F, orb_true_r. reflexivity.
Qed.

Lemma scan_lines_from : forall L sc tb, sc <> [] -> In (fst tb) all_tokens -> Forall line_ok L ->
  finish_scan all_tokens (scan_chars all_tokens (concat (map cat L)) <<sc, cat tb>>) = sc ++ map seg_of (tb :: L).
Proof.
  induction L as [|l L IH]; intros sc tb Hsc Ht HL; [apply finish_token_line, Ht|].
  inversion HL as [|? ? Hl HL']. cbn [map concat]. rewrite scan_chars_app, (scan_line l sc _ Hl).
  rewrite IH; [| destruct sc; discriminate | apply Hl | exact HL'].
  destruct sc as [|s0 sc]; [contradiction|]. cbn [length Nat.eqb negb map]. rewrite <- app_assoc. reflexivity.
Qed.

Theorem scan_lines (h : str) (tb : str * str) (L : list (str * str)) :
  no_colon h = true -> Forall line_ok (tb :: L) ->
  scan_rest (h ++ concat (map cat (tb :: L))) = (false, h) :: map seg_of (tb :: L).
Proof.
  intros Hh HL. inversion HL as [|? ? Htb HL']. unfold scan_rest. cbn [map concat].
  rewrite !scan_chars_app, scan_keys by (apply keys_ok_dead; [reflexivity | exact Hh]). cbn [app].
  rewrite (scan_line tb [] h Htb). apply (scan_lines_from L [(false, h)] tb); [discriminate | apply Htb | exact HL'].
Qed.

Lemma find_start_app c pre mid rest k : slen pre = k -> ~ In c mid ->
  let s := pre ++ mid ++ c :: rest in
  find_start [c] s k = (k + slen mid)%Z /\ slice_from s (k + slen mid + 1) = rest.
Proof.
  intros <- Hm s. pose proof (slen_nonneg pre) as Hp. pose proof (slen_nonneg mid) as Hq. split.
  - unfold find_start. rewrite norm_idx_nonneg by exact Hp.
    rewrite Z.min_l by (unfold s; rewrite slen_app; pose proof (slen_nonneg (mid ++ c :: rest)); lia).
    rewrite (slice_from_app s pre (mid ++ c :: rest) _ eq_refl eq_refl). unfold find. rewrite find_from_skip by exact Hm.
    destruct (0 + slen mid)%Z eqn:E; lia.
  - apply (slice_from_app s (pre ++ mid ++ [c]) rest); [unfold s; rewrite <- !app_assoc; reflexivity|].
    rewrite !slen_app. change (slen [c]) with 1%Z. lia.
Qed.

(* the tokens as literal lists of code points (COLON :: ...) *)
Definition T_param : str := Eval vm_compute in s2l ":param".
Definition T_type : str := Eval vm_compute in s2l ":type".
Definition T_return : str := Eval vm_compute in s2l ":return".
Definition T_rtype : str := Eval vm_compute in s2l ":rtype".
Definition FENCE : str := [BT; BT; BT].

Definition name_ok0 (n : str) : bool :=
  negb (Nat.eqb (length n) 0) && forallb (fun c => negb (c =? SP) && negb (c =? COLON)) n && negb (startswith [STAR] n).
(* "...kwargs" is re-typed by _set_name_and_type: outside the domain *)
Definition name_ok (n : str) : bool := name_ok0 n && negb (endswith (s2l "kwargs") n).
Lemma name_ok_parts n : name_ok n = true ->
  ~ In SP n /\ no_colon n = true /\ startswith [STAR] n = false /\ norm_name n = n.
Proof.
  unfold name_ok, name_ok0. rewrite !andb_true_iff, !negb_true_iff. intros [[[_ Hc] Hs] Hk].
  rewrite forallb_forall in Hc. repeat split.
  - intro K. specialize (Hc _ K). discriminate Hc.
  - apply forallb_forall. intros c K. specialize (Hc c K). apply andb_true_iff in Hc as [_ Hc]. exact Hc.
  - exact Hs.
  - unfold norm_name. rewrite Hk. destruct n as [|c r]; [reflexivity|]. cbn [startswith] in *. rewrite andb_true_r in Hs. rewrite Hs. reflexivity.
Qed.
Lemma name_ok_no_sp n : name_ok n = true -> ~ In SP n.
Proof. intro H. apply (name_ok_parts n H). Qed.

Definition cur_entry (s : pstate) (n : str) : pentry :=
  match st_cur s with Some (n0, e0) => if str_eqb n0 n then e0 else empty_entry | None => empty_entry end.
Definition params_after (s : pstate) (n : str) : list (str * pentry) :=
  match st_cur s with Some (n0, e0) => if str_eqb n0 n then st_params s else flush s | None => st_params s end.

(* what the parser asks of the token is assumed for every continuation X, so that a caller settles it on its literal token by
   [intro X; reflexivity] *)
Lemma parse_named_line (tok : str) (is_typ : bool) s n body :
  ~ In SP tok ->
  (forall X, existsb (fun t => startswith t (tok ++ X)) return_tokens = false) ->
  (forall X, startswith (s2l ":type") (tok ++ X) = is_typ) ->
  name_ok n = true ->
  parse_token_line s (tok ++ SP :: n ++ COLON :: body)
  = {| st_doc := st_doc s; st_params := params_after s n; st_ret := st_ret s;
       st_cur := Some (n, if is_typ then set_typ (cur_entry s n) (typ_value (strip body)) else set_doc (cur_entry s n) (strip body)) |}.
Proof.
  intros Hsp Hret Htyp Hn. destruct (name_ok_parts n Hn) as [_ [Nc [_ Nn]]]. unfold parse_token_line. rewrite Hret, Htyp.
  set (line := tok ++ SP :: n ++ COLON :: body).
  assert (F1 : find [SP] line = slen tok).
  { unfold find, line. rewrite find_from_skip by exact Hsp. reflexivity. }
  assert (Hc : ~ In COLON (SP :: n)) by (intros [K|K]; [discriminate | exact (no_colon_not_in n Nc K)]).
  destruct (find_start_app COLON tok (SP :: n) body _ eq_refl Hc) as [F2 V]. cbn [app] in F2, V. fold line in F2, V. rewrite F1, F2, V, slen_cons.
  assert (N : slice line (slen tok + 1) (slen tok + (1 + slen n)) = n).
  { apply (slice_mid _ (tok ++ [SP]) n (COLON :: body)); [unfold line; rewrite <- app_assoc; reflexivity | symmetry; apply slen_app | lia]. }
  rewrite N, Nn. unfold params_after, cur_entry.
  destruct (st_cur s) as [[n0 e0]|]; [destruct (str_eqb n0 n)|]; reflexivity.
Qed.

Lemma parse_return_line (l : str) (is_rtype : bool) s body :
  no_colon l = true ->
  (forall X, existsb (fun t => startswith t ((COLON :: l) ++ X)) return_tokens = true) ->
  (forall X, startswith (s2l ":rtype") ((COLON :: l) ++ X) = is_rtype) ->
  parse_token_line s ((COLON :: l) ++ COLON :: body)
  = {| st_doc := st_doc s; st_params := st_params s;
       st_ret := Some (let e := match st_ret s with Some e => e | None => empty_entry end in
                       if is_rtype then set_typ e (typ_value (strip body)) else set_doc e (strip body));
       st_cur := st_cur s |}.
Proof.
  intros Hl Hret Hrt. unfold parse_token_line. rewrite Hret, Hrt.
  destruct (find_start_app COLON [COLON] l body 1 eq_refl (no_colon_not_in l Hl)) as [F V]. cbn [app] in *. rewrite F, V.
  reflexivity.
Qed.

Definition no_bt (t : str) : bool := forallb (fun c => negb (c =? BT)) t.
Lemma replace_no_bt t : no_bt t = true -> replace [BT; BT; BT] [] t = t.
Proof. intro H. unfold replace. rewrite split_str_absent by (apply not_in_forallb, H). reflexivity. Qed.

Definition typ_ok (t : str) : bool := negb (Nat.eqb (length t) 0) && no_bt t && negb (startswith [STAR; STAR] t) && no_colon t.

Lemma typ_value_fenced t : typ_ok t = true -> typ_value (FENCE ++ t ++ FENCE) = t.
Proof.
  unfold typ_ok. rewrite !andb_true_iff, !negb_true_iff. intros [[[_ Hb] Hs] _]. unfold typ_value. change (s2l "```") with FENCE.
  assert (R : replace FENCE [] (FENCE ++ t ++ FENCE) = t).
  { unfold replace, split_str. replace (S (length (FENCE ++ t ++ FENCE))) with (S (length t + 6)) by (rewrite !app_length; cbn; lia).
    unfold FENCE. cbn [app split_str_aux startswith]. rewrite !N.eqb_refl. cbn [andb length skipn].
    rewrite (split_str_aux_app BT [BT; BT] t 6 [BT; BT; BT] []) by (apply not_in_forallb, Hb).
    cbn. rewrite !app_nil_r. apply rev_involutive. }
  rewrite R, Hs. reflexivity.
Qed.

Definition fenced (t : str) : str := FENCE ++ t ++ FENCE.
Lemma strip_doc d sep : clean d = true -> blank sep = true -> strip (SP :: d ++ sep) = d.
Proof. intros Hd Hs. destruct (proj1 (clean_iff d) Hd) as [D1 [D2 _]]. exact (strip_padded [SP] d sep eq_refl Hs D1 D2). Qed.
Lemma typ_value_strip t sep : typ_ok t = true -> blank sep = true -> typ_value (strip (SP :: fenced t ++ sep)) = t.
Proof.
  intros Ht Hs. change (SP :: fenced t ++ sep) with ([SP] ++ fenced t ++ sep).
  rewrite (strip_padded [SP] (fenced t) sep eq_refl Hs eq_refl) by (apply tail_ok_app_r, tail_ok_app_r; reflexivity).
  apply typ_value_fenced, Ht.
Qed.

(* the tokens the line parser reads alike: each introduces a described name *)
Definition doc_tokens : list str := map s2l [":param"; ":cvar"; ":ivar"; ":var"; ":raises"]%string.

Lemma doc_token_facts tk : In tk doc_tokens ->
  In tk all_tokens /\ ~ In SP tk /\ dead (Some (tk ++ [SP])) = true
  /\ (forall X, existsb (fun t => startswith t (tk ++ X)) return_tokens = false)
  /\ (forall X, startswith (s2l ":type") (tk ++ X) = false).
Proof.
  intro H. unfold doc_tokens in H. cbn [map In] in H.
  repeat (destruct H as [<-|H];
          [split; [apply mem_str_In; reflexivity|]; split; [apply not_in_forallb; reflexivity|]; split; [reflexivity|];
           split; intro X; reflexivity|]).
  contradiction.
Qed.

Lemma parse_doc_line tk s n body : In tk doc_tokens -> name_ok n = true ->
  parse_token_line s (tk ++ SP :: n ++ COLON :: body)
  = {| st_doc := st_doc s; st_params := params_after s n; st_ret := st_ret s; st_cur := Some (n, set_doc (cur_entry s n) (strip body)) |}.
Proof. intros Htk Hn. destruct (doc_token_facts tk Htk) as [_ [Hsp [_ [Hret Htyp]]]]. exact (parse_named_line tk false s n body Hsp Hret Htyp Hn). Qed.

Lemma parse_typ_line s n body : name_ok n = true ->
  parse_token_line s (T_type ++ SP :: n ++ COLON :: body)
  = {| st_doc := st_doc s; st_params := params_after s n; st_ret := st_ret s;
       st_cur := Some (n, set_typ (cur_entry s n) (typ_value (strip body))) |}.
Proof.
  apply (parse_named_line T_type true s n body); [|intro X; reflexivity | intro X; reflexivity].
  intro H. cbn in H. repeat (destruct H as [H|H]; [discriminate|]). exact H.
Qed.

Lemma parse_rdoc_line s body :
  parse_token_line s (T_return ++ COLON :: body)
  = {| st_doc := st_doc s; st_params := st_params s;
       st_ret := Some (set_doc (match st_ret s with Some e => e | None => empty_entry end) (strip body)); st_cur := st_cur s |}.
Proof. apply (parse_return_line (tl T_return) false s body); [reflexivity | intro X; reflexivity | intro X; reflexivity]. Qed.

Lemma parse_rtyp_line s body :
  parse_token_line s (T_rtype ++ COLON :: body)
  = {| st_doc := st_doc s; st_params := st_params s;
       st_ret := Some (set_typ (match st_ret s with Some e => e | None => empty_entry end) (typ_value (strip body))); st_cur := st_cur s |}.
Proof. apply (parse_return_line (tl T_rtype) true s body); [reflexivity | intro X; reflexivity | intro X; reflexivity]. Qed.

Definition entry_ok (e : pentry) : bool :=
  match pe_doc e, pe_typ e with
  | None, None => false
  | od, ot => (match od with Some d => clean d | None => true end) && (match ot with Some t => typ_ok t | None => true end)
  end.

Definition named_body (n rest : str) : str := SP :: n ++ COLON :: SP :: rest.

Definition param_lines (n : str) (e : pentry) (sep : str) : list (str * str) :=
  match pe_doc e, pe_typ e with
  | Some d, Some t => [(T_param, named_body n (d ++ [NL])); (T_type, named_body n (fenced t ++ sep))]
  | Some d, None => [(T_param, named_body n (d ++ sep))]
  | None, Some t => [(T_type, named_body n (fenced t ++ sep))]
  | None, None => []
  end.
Definition ret_lines (e : pentry) (sep : str) : list (str * str) :=
  match pe_doc e, pe_typ e with
  | Some d, Some t => [(T_return, COLON :: SP :: d ++ [NL]); (T_rtype, COLON :: SP :: fenced t ++ sep)]
  | Some d, None => [(T_return, COLON :: SP :: d ++ sep)]
  | None, Some t => [(T_rtype, COLON :: SP :: fenced t ++ sep)]
  | None, None => []
  end.
Fixpoint lines_params (ps : list (str * pentry)) (final_sep : str) : list (str * str) :=
  match ps with
  | [] => []
  | [(n, e)] => param_lines n e final_sep
  | (n, e) :: r => param_lines n e [NL; NL] ++ lines_params r final_sep
  end.
Definition param_ok (p : str * pentry) : bool := name_ok (fst p) && entry_ok (snd p).

Definition all_lines (ps : list (str * pentry)) (ret : option pentry) : list (str * str) :=
  match ret with
  | None => lines_params ps [NL]
  | Some r => lines_params ps [NL; NL] ++ ret_lines r [NL]
  end.
Definition render (doc : str) (ps : list (str * pentry)) (ret : option pentry) : str :=
  (doc ++ [NL; NL]) ++ concat (map cat (all_lines ps ret)).

Definition ret_ok (ret : option pentry) : bool := match ret with Some r => entry_ok r | None => true end.

Lemma param_ok_iff p : param_ok p = true <-> name_ok (fst p) = true /\ entry_ok (snd p) = true.
Proof. apply andb_true_iff. Qed.

Inductive entry_shape : pentry -> Prop :=
| ES_both d t : clean d = true -> typ_ok t = true -> entry_shape {| pe_doc := Some d; pe_typ := Some t |}
| ES_doc d : clean d = true -> entry_shape {| pe_doc := Some d; pe_typ := None |}
| ES_typ t : typ_ok t = true -> entry_shape {| pe_doc := None; pe_typ := Some t |}.

Lemma entry_ok_shape e : entry_ok e = true -> entry_shape e.
Proof.
  destruct e as [[d|] [t|]]; unfold entry_ok; cbn [pe_doc pe_typ]; intro H; try discriminate H;
    try (apply andb_true_iff in H as [Hd Ht]); constructor; assumption.
Qed.

Lemma T_type_return_rtype_tokens : In T_type all_tokens /\ In T_return all_tokens /\ In T_rtype all_tokens.
Proof. repeat split; apply mem_str_In; reflexivity. Qed.

Lemma no_colon_blank_nl : no_colon [NL] = true /\ no_colon [NL; NL] = true. Proof. split; reflexivity. Qed.
Lemma blank_nl : blank [NL] = true /\ blank [NL; NL] = true. Proof. split; reflexivity. Qed.

Lemma clean_no_colon d : clean d = true -> no_colon d = true.
Proof. intro H. apply (clean_iff d), H. Qed.
Lemma fenced_no_colon t : typ_ok t = true -> no_colon (fenced t) = true.
Proof. unfold typ_ok, fenced. intro H. apply andb_true_iff in H as [_ H]. rewrite !no_colon_app, H. reflexivity. Qed.

Lemma named_line_ok t n v sep : In t all_tokens -> dead (Some (t ++ [SP])) = true -> name_ok n = true -> no_colon v = true -> blank sep = true ->
  line_ok (t, named_body n (v ++ sep)).
Proof.
  intros Ht Hd Hn Hv Hs. destruct (name_ok_parts n Hn) as [_ [Nc _]]. split; [exact Ht|]. unfold named_body. cbn [fst snd keys_ok].
  change (advance1 (Some t) SP) with (Some (t ++ [SP])). rewrite (dead_quiet _ Hd), keys_ok_app, (keys_ok_dead n _ Hd Nc).
  apply keys_after_colon_sp. rewrite no_colon_app, Hv. apply blank_no_colon, Hs.
Qed.
Lemma return_line_ok t v sep : In t all_tokens -> no_colon v = true -> blank sep = true -> line_ok (t, COLON :: SP :: v ++ sep).
Proof. intros Ht Hv Hs. split; [exact Ht|]. apply keys_after_colon_sp. rewrite no_colon_app, Hv. apply blank_no_colon, Hs. Qed.

Lemma set_assoc_fresh k v : forall l, ~ In k (map fst l) -> set_assoc k v l = l ++ [(k, v)].
Proof.
  induction l as [|[k' v'] l IH]; intro H; cbn [set_assoc app]; [reflexivity|].
  rewrite str_eqb_neq by (intro E; apply H; left; symmetry; exact E). rewrite IH by (intro K; apply H; right; exact K). reflexivity.
Qed.
Lemma set_assoc_key k v : forall l, In k (map fst (set_assoc k v l)).
Proof.
  induction l as [|[k' v'] l IH]; cbn [set_assoc]; [left; reflexivity|].
  destruct (str_eqb k k'); [left; reflexivity | right; exact IH].
Qed.

Lemma cur_fresh s n : startswith [STAR] n = false -> ~ In n (map fst (flush s)) -> cur_entry s n = empty_entry /\ params_after s n = flush s.
Proof.
  intros Hs H. unfold cur_entry, params_after. destruct (st_cur s) as [[n0 e0]|] eqn:E; [|unfold flush; rewrite E; auto].
  destruct (str_eqbP n0 n) as [->|]; [|auto]. destruct H. unfold flush. rewrite E, Hs. apply set_assoc_key.
Qed.

(* One statement for every text the emitters write: [tk] introduces a described name (:param in functions, :cvar in classes),
   S1 stands between the two lines of an entry, S2 between two entries, SF after the last line, HP / HS around the header. *)
Section Canon.
  Variables tk S1 S2 SF HP HS : str.
  Hypothesis Htk : In tk doc_tokens.
  Hypothesis B1 : blank S1 = true. Hypothesis B2 : blank S2 = true. Hypothesis BF : blank SF = true.
  Hypothesis BP : blank HP = true. Hypothesis BS : blank HS = true.

  Definition entry_lines (n : str) (e : pentry) (sep : str) : list (str * str) :=
    match pe_doc e, pe_typ e with
    | Some d, Some t => [(tk, named_body n (d ++ S1)); (T_type, named_body n (fenced t ++ sep))]
    | Some d, None => [(tk, named_body n (d ++ sep))]
    | None, Some t => [(T_type, named_body n (fenced t ++ sep))]
    | None, None => []
    end.
  Definition return_lines (e : pentry) (sep : str) : list (str * str) :=
    match pe_doc e, pe_typ e with
    | Some d, Some t => [(T_return, COLON :: SP :: d ++ S1); (T_rtype, COLON :: SP :: fenced t ++ sep)]
    | Some d, None => [(T_return, COLON :: SP :: d ++ sep)]
    | None, Some t => [(T_rtype, COLON :: SP :: fenced t ++ sep)]
    | None, None => []
    end.
  Fixpoint params_lines (ps : list (str * pentry)) (final_sep : str) : list (str * str) :=
    match ps with
    | [] => []
    | [(n, e)] => entry_lines n e final_sep
    | (n, e) :: r => entry_lines n e S2 ++ params_lines r final_sep
    end.
  Definition canon_lines (ps : list (str * pentry)) (ret : option pentry) : list (str * str) :=
    match ret with
    | None => params_lines ps SF
    | Some r => params_lines ps S2 ++ return_lines r SF
    end.
  Definition canon_text (doc : str) (ps : list (str * pentry)) (ret : option pentry) : str :=
    (HP ++ doc ++ HS) ++ concat (map cat (canon_lines ps ret)).

  Lemma params_lines_cons p r fs :
    params_lines (p :: r) fs = entry_lines (fst p) (snd p) (match r with [] => fs | _ => S2 end) ++ params_lines r fs.
  Proof. destruct p, r; cbn [params_lines fst snd]; [rewrite app_nil_r|]; reflexivity. Qed.

  Lemma entry_lines_ok n e sep : name_ok n = true -> entry_ok e = true -> blank sep = true -> Forall line_ok (entry_lines n e sep).
  Proof.
    intros Hn He Hs. destruct (doc_token_facts tk Htk) as [Hin [_ [Hdead _]]]. destruct T_type_return_rtype_tokens as [Hty _].
    destruct (entry_ok_shape e He) as [d t Hd Ht | d Hd | t Ht]; cbn [entry_lines pe_doc pe_typ];
      repeat (apply Forall_cons; [apply named_line_ok; auto using clean_no_colon, fenced_no_colon|]); apply Forall_nil.
  Qed.
  Lemma return_lines_ok e sep : entry_ok e = true -> blank sep = true -> Forall line_ok (return_lines e sep).
  Proof.
    intros He Hs. destruct T_type_return_rtype_tokens as [_ [Hre Hrt]].
    destruct (entry_ok_shape e He) as [d t Hd Ht | d Hd | t Ht]; cbn [return_lines pe_doc pe_typ];
      repeat (apply Forall_cons; [apply return_line_ok; auto using clean_no_colon, fenced_no_colon|]); apply Forall_nil.
  Qed.

  Lemma params_lines_ok : forall ps fs, forallb param_ok ps = true -> blank fs = true -> Forall line_ok (params_lines ps fs).
  Proof.
    induction ps as [|p r IH]; intros fs Hok Hfs; [constructor|]. apply andb_true_iff in Hok as [Hp Hok]. apply param_ok_iff in Hp as [Hn He].
    rewrite params_lines_cons. apply Forall_app. split; [apply entry_lines_ok; try assumption; destruct r; assumption | apply IH; assumption].
  Qed.

  Lemma canon_lines_ok ps ret : forallb param_ok ps = true -> ret_ok ret = true -> Forall line_ok (canon_lines ps ret).
  Proof.
    intros Hp Hr. unfold canon_lines. destruct ret as [r|]; [|apply params_lines_ok; assumption].
    apply Forall_app. split; [apply params_lines_ok; assumption | apply return_lines_ok; assumption].
  Qed.

  Lemma canon_lines_nonempty ps ret : forallb param_ok ps = true -> ret_ok ret = true -> (ps <> [] \/ ret <> None) -> canon_lines ps ret <> [].
  Proof.
    intros Hp Hr Hne E. unfold canon_lines in E. destruct ret as [r|].
    - apply app_eq_nil in E as [_ E]. destruct (entry_ok_shape r Hr); discriminate E.
    - destruct Hne as [Hne|Hne]; [|contradiction]. destruct ps as [|p r]; [contradiction|].
      apply andb_true_iff in Hp as [Hp _]. apply param_ok_iff in Hp as [_ He].
      rewrite params_lines_cons in E. apply app_eq_nil in E as [E _]. destruct (entry_ok_shape _ He); discriminate E.
  Qed.

  Lemma fold_entry_lines s n e sep : name_ok n = true -> entry_ok e = true -> blank sep = true ->
    ~ In n (map fst (flush s)) ->
    fold_left parse_seg (map seg_of (entry_lines n e sep)) s
    = {| st_doc := st_doc s; st_params := flush s; st_ret := st_ret s; st_cur := Some (n, e) |}.
  Proof.
    intros Hn He Hs Hf. destruct (name_ok_parts n Hn) as [_ [_ [Hstar _]]]. destruct (cur_fresh s n Hstar Hf) as [C P].
    destruct (entry_ok_shape e He) as [d t Hd Ht | d Hd | t Ht]; cbn [entry_lines pe_doc pe_typ map fold_left];
      unfold seg_of, cat, named_body; cbn [fst snd parse_seg].
    - rewrite (parse_doc_line tk s n _ Htk Hn), (parse_typ_line _ n _ Hn), (strip_doc d S1 Hd B1), (typ_value_strip t sep Ht Hs), C, P.
      unfold cur_entry, params_after. cbn [st_cur st_params st_doc st_ret]. rewrite str_eqb_refl. reflexivity.
    - rewrite (parse_doc_line tk s n _ Htk Hn), (strip_doc d sep Hd Hs), C, P. reflexivity.
    - rewrite (parse_typ_line s n _ Hn), (typ_value_strip t sep Ht Hs), C, P. reflexivity.
  Qed.

  Lemma fold_return_lines s e sep : entry_ok e = true -> blank sep = true -> st_ret s = None ->
    fold_left parse_seg (map seg_of (return_lines e sep)) s
    = {| st_doc := st_doc s; st_params := st_params s; st_ret := Some e; st_cur := st_cur s |}.
  Proof.
    intros He Hs Hr.
    destruct (entry_ok_shape e He) as [d t Hd Ht | d Hd | t Ht]; cbn [return_lines pe_doc pe_typ map fold_left];
      unfold seg_of, cat; cbn [fst snd parse_seg].
    - rewrite parse_rdoc_line, parse_rtyp_line, (strip_doc d S1 Hd B1), (typ_value_strip t sep Ht Hs). reflexivity.
    - rewrite parse_rdoc_line, (strip_doc d sep Hd Hs), Hr. reflexivity.
    - rewrite parse_rtyp_line, (typ_value_strip t sep Ht Hs), Hr. reflexivity.
  Qed.

  Lemma fold_params_lines : forall ps s fs, blank fs = true -> forallb param_ok ps = true -> NoDup (map fst (flush s) ++ map fst ps) ->
    let s' := fold_left parse_seg (map seg_of (params_lines ps fs)) s in
    flush s' = flush s ++ ps /\ st_doc s' = st_doc s /\ st_ret s' = st_ret s.
  Proof.
    induction ps as [|[n e] r IH]; intros s fs Hfs Hok Hnd; cbn zeta; [cbn; rewrite app_nil_r; auto|].
    apply andb_true_iff in Hok as [Hp Hok]. apply param_ok_iff in Hp as [Hn He]. cbn [fst snd] in Hn, He.
    cbn [map fst] in Hnd. assert (Hf : ~ In n (map fst (flush s))) by (intro K; apply (NoDup_remove_2 _ _ _ Hnd), in_or_app; left; exact K).
    rewrite params_lines_cons, map_app, fold_left_app. cbn [fst snd].
    rewrite (fold_entry_lines s n e _ Hn He) by (try exact Hf; destruct r; assumption).
    set (s1 := {| st_doc := st_doc s; st_params := flush s; st_ret := st_ret s; st_cur := Some (n, e) |}).
    assert (F1 : flush s1 = flush s ++ [(n, e)]).
    { destruct (name_ok_parts n Hn) as [_ [_ [Hstar _]]]. unfold flush at 1. cbn [s1 st_cur st_params]. rewrite Hstar.
      apply set_assoc_fresh, Hf. }
    destruct (IH s1 fs Hfs Hok) as [A [B C]]; [rewrite F1, map_app, <- app_assoc; exact Hnd|].
    rewrite A, F1, <- app_assoc. auto.
  Qed.

  Theorem parse_canon_text doc ps ret :
    clean doc = true -> forallb param_ok ps = true -> NoDup (map fst ps) -> ret_ok ret = true -> (ps <> [] \/ ret <> None) ->
    parse_rest (canon_text doc ps ret) = {| p_doc := doc; p_params := ps; p_ret := ret |}.
  Proof.
    intros Hd Hp Hnd Hr Hne. destruct (proj1 (clean_iff doc) Hd) as [D1 [D2 D3]].
    pose proof (canon_lines_ok ps ret Hp Hr) as HL. pose proof (canon_lines_nonempty ps ret Hp Hr Hne) as HN.
    unfold parse_rest, canon_text. destruct (canon_lines ps ret) as [|tb L'] eqn:EL; [contradiction|].
    rewrite (scan_lines (HP ++ doc ++ HS) tb L') by (try exact HL; rewrite !no_colon_app, D3, !blank_no_colon by assumption; reflexivity).
    rewrite <- EL. cbn [fold_left parse_seg init_state st_doc]. rewrite (strip_padded HP doc HS BP BS D1 D2).
    set (s0 := {| st_doc := doc; st_params := st_params init_state; st_ret := st_ret init_state; st_cur := st_cur init_state |}).
    unfold canon_lines. destruct ret as [r|].
    - rewrite map_app, fold_left_app. destruct (fold_params_lines ps s0 S2 B2 Hp Hnd) as [A [B C]].
      set (s1 := fold_left parse_seg (map seg_of (params_lines ps S2)) s0) in *.
      rewrite (fold_return_lines s1 r SF Hr BF C). cbn [st_doc st_ret]. unfold flush at 1. cbn [st_cur st_params].
      fold (flush s1). rewrite A, B. reflexivity.
    - destruct (fold_params_lines ps s0 SF BF Hp Hnd) as [A [B C]]. rewrite A, B, C. reflexivity.
  Qed.
End Canon.

Lemma render_canon doc ps ret : render doc ps ret = canon_text T_param [NL] [NL; NL] [NL] [] [NL; NL] doc ps ret.
Proof. reflexivity. Qed.

Theorem parse_render doc ps ret :
  clean doc = true -> forallb param_ok ps = true -> NoDup (map fst ps) -> ret_ok ret = true -> (ps <> [] \/ ret <> None) ->
  parse_rest (render doc ps ret) = {| p_doc := doc; p_params := ps; p_ret := ret |}.
Proof. exact (parse_canon_text T_param [NL] [NL; NL] [NL] [] [NL; NL] (or_introl eq_refl) eq_refl eq_refl eq_refl eq_refl eq_refl doc ps ret). Qed.

Lemma count_nls_head_ok s : head_ok s = true -> count_nls_prefix s = O.
Proof. destruct s as [|c r]; [discriminate|]. intro H. apply head_ok_not_space in H. cbn. rewrite (nonspace_not_nl c H), H. reflexivity. Qed.
Lemma count_nls_app a x : count_nls_prefix (nls a ++ x) = (a + count_nls_prefix x)%nat.
Proof. unfold nls. induction a as [|a IH]; [reflexivity|]. cbn [repeat app count_nls_prefix]. rewrite N.eqb_refl, IH. reflexivity. Qed.
Lemma rev_nls b : rev (nls b) = nls b.
Proof. unfold nls. induction b as [|b IH]; [reflexivity|]. cbn [repeat rev]. rewrite IH. symmetry. apply repeat_cons. Qed.

Lemma nls_end_count y b : tail_ok y = true -> num_of_nls (y ++ nls b) true = b.
Proof.
  destruct y as [|c y]; [discriminate|]. unfold tail_ok, num_of_nls. cbn [app tl rev]. intro H.
  rewrite rev_app_distr, rev_nls, count_nls_app. destruct (rev y) as [|z r]; [cbn; lia|].
  rewrite (count_nls_head_ok (z :: r) H). lia.
Qed.
Lemma nls_end_tail_ok s : tail_ok s = true -> num_of_nls s true = O.
Proof. intro H. rewrite <- (app_nil_r s). apply (nls_end_count s 0 H). Qed.

Lemma indent_nil : forall s b, indent_aux [] s b = s.
Proof. induction s as [|c r IH]; intro b; cbn; [reflexivity|]. destruct b; cbn; rewrite IH; reflexivity. Qed.

Lemma haf_section doc (lead trail : bool) x :
  head_ok doc = true -> tail_ok doc = true -> head_ok x = true -> tail_ok x = true ->
  header_args_footer_to_str doc ((if lead then [NL] else []) ++ x ++ (if trail then [NL] else [])) [] = doc ++ [NL; NL] ++ x ++ [NL].
Proof.
  intros D1 D2 X1 X2. remember ((if lead then [NL] else []) ++ x ++ (if trail then [NL] else [])) as ar eqn:Ear.
  assert (S0 : num_of_nls ar false = if lead then 1%nat else O).
  { subst ar. unfold num_of_nls. destruct lead; cbn [app count_nls_prefix]; rewrite ?N.eqb_refl, (count_nls_head_ok _ (head_ok_app x _ X1)); reflexivity. }
  assert (E0 : num_of_nls ar true = if trail then 1%nat else O).
  { subst ar. rewrite app_assoc. destruct trail; [apply (nls_end_count _ 1) | rewrite app_nil_r; apply nls_end_tail_ok]; apply tail_ok_app_r, X2. }
  assert (CL : count_leading_space doc = O) by (destruct doc as [|d0 dr]; [discriminate|]; cbn; rewrite (head_ok_not_space d0 dr D1); reflexivity).
  (* neither text is empty: written as a cons, each lets the model's [match ... with [] => ...] take its other arm *)
  destruct ar as [|a0 ar']; [destruct lead, x; discriminate|]. destruct doc as [|d0 dr]; [discriminate|].
  unfold header_args_footer_to_str. rewrite S0, E0, (nls_end_tail_ok _ D2).
  set (ar1 := _ ++ (a0 :: ar') ++ _).
  assert (A1 : ar1 = NL :: NL :: x ++ [NL]) by (subst ar1; rewrite Ear; destruct lead, trail; cbn; rewrite <- ?app_assoc; reflexivity).
  (* two line breaks lead it, so none is put in front, whatever follows them *)
  rewrite A1, CL.
  change (count_leading_space (NL :: NL :: x ++ [NL])) with (S (S (count_leading_space (x ++ [NL])))).
  cbn [firstn count_char Nat.sub Nat.eqb spaces repeat]. unfold indent. rewrite indent_nil, app_nil_r.
  change (NL :: NL :: x ++ [NL]) with ((NL :: NL :: x) ++ [NL]). rewrite last_opt_snoc, N.eqb_refl.
  cbn [Nat.add Nat.ltb Nat.leb orb nls repeat length Nat.eqb negb andb app]. rewrite app_nil_r. reflexivity.
Qed.

(* cdd/docstring/emit.py:docstring after the sections are built.  emit_rest, emit_rest_indented(_nt), emit_google and emit_numpy are
   [doc_frame post ...] by conversion, each with its own section text and last step [post], and class_docstring is [rstrip] of one:
   the proofs say so with [change] or [exact] *)
Definition doc_frame (post : str -> str) (doc ar : str) : str :=
  let cand := header_args_footer_to_str doc (if isspace ar then [] else ar) [] in
  match cand with
  | [] => []
  | c :: _ =>
      if isspace cand then []
      else if Nat.eqb (count_char NL cand) 0 then (if c =? NL then cand else NL :: cand)
      else post cand
  end.

Lemma doc_frame_section post doc (lead trail : bool) x :
  head_ok doc = true -> tail_ok doc = true -> head_ok x = true -> tail_ok x = true ->
  doc_frame post doc ((if lead then [NL] else []) ++ x ++ (if trail then [NL] else [])) = post (doc ++ [NL; NL] ++ x ++ [NL]).
Proof.
  intros D1 D2 X1 X2. unfold doc_frame.
  replace (isspace ((if lead then [NL] else []) ++ x ++ (if trail then [NL] else []))) with false.
  2:{ destruct x as [|x0 xr]; [discriminate|]. apply head_ok_not_space in X1. unfold isspace.
      destruct lead; cbn [app forallb]; rewrite X1, ?andb_false_r; reflexivity. }
  rewrite (haf_section doc lead trail x D1 D2 X1 X2).
  destruct (doc ++ [NL; NL] ++ x ++ [NL]) as [|c r] eqn:E; [destruct doc; discriminate|]. rewrite <- E.
  rewrite (isspace_head_ok _ (head_ok_app doc _ D1)).
  replace (Nat.eqb (count_char NL (doc ++ [NL; NL] ++ x ++ [NL])) 0) with false; [reflexivity|].
  symmetry. apply Nat.eqb_neq, count_char_in, in_or_app. right. left. reflexivity.
Qed.

(* the same text as the emitter writes it: a block is the one or two lines of an entry, joined by S1; the blocks are joined by S2
   (canon_lines_text says it is the text of Section Canon) *)
Definition blocks_text (S1 S2 : str) (BL : list (list str)) : str := join S2 (map (join S1) BL).
Definition block_ok (P : str -> Prop) (b : list str) : Prop := b <> [] /\ Forall P b.

Lemma blocks_text_ends S1 S2 BL : BL <> [] -> Forall (block_ok ends_ok) BL -> ends_ok (blocks_text S1 S2 BL).
Proof.
  intros Hne H. apply join_ends_ok; [apply map_ne, Hne|]. apply Forall_map. revert H. apply Forall_impl.
  intros b [B1 B2]. apply join_ends_ok; assumption.
Qed.
Lemma blocks_text_cons S1 S2 b BL : BL <> [] -> blocks_text S1 S2 (b :: BL) = join S1 b ++ S2 ++ blocks_text S1 S2 BL.
Proof. intro H. unfold blocks_text. cbn [map]. apply join_cons_ne, map_ne, H. Qed.
Lemma clean_nonempty d : clean d = true -> nonempty (Some d) = Some d /\ lstrip d = d.
Proof.
  intro H. destruct (proj1 (clean_iff d) H) as [D1 _]. split; [destruct d; [discriminate | reflexivity] | apply lstrip_head_ok, D1].
Qed.

Lemma lines_of_clean key key_typ e : entry_ok e = true ->
  lines_of key key_typ true e
  = match pe_doc e with Some d => [[COLON] ++ key ++ s2l ": " ++ d] | None => [] end
    ++ match pe_typ e with Some t => [[COLON] ++ key_typ ++ s2l ": ```" ++ t ++ s2l "```"] | None => [] end.
Proof.
  intro He. unfold lines_of. destruct (entry_ok_shape e He) as [d t Hd Ht | d Hd | t Ht]; cbn [pe_doc pe_typ];
    try destruct (clean_nonempty d Hd) as [-> ->]; try (destruct t; [discriminate Ht|]); reflexivity.
Qed.

Lemma lines_of_ends key key_typ e : entry_ok e = true -> block_ok ends_ok (lines_of key key_typ true e).
Proof.
  intro He. rewrite (lines_of_clean key key_typ e He).
  destruct (entry_ok_shape e He) as [d t Hd Ht | d Hd | t Ht]; cbn [pe_doc pe_typ app]; (split; [discriminate|]); repeat constructor;
    try destruct (proj1 (clean_iff d) Hd) as [_ [T _]]; repeat first [exact T | reflexivity | apply (tail_ok_app_r [_]) | apply tail_ok_app_r].
Qed.

Definition return_block (r : pentry) : list str := lines_of (s2l "return") (s2l "rtype") true r.

Lemma named_body_app n a b : named_body n (a ++ b) = named_body n a ++ b.
Proof. unfold named_body. cbn [app]. f_equal. rewrite <- app_assoc. reflexivity. Qed.

Section CanonBlocks.
  Variables k S1 S2 SF : str.
  Let tk := COLON :: k.

  Definition entry_block (n : str) (e : pentry) : list str := lines_of (k ++ SP :: n) (s2l "type " ++ n) true e.
  Definition blocks_of (ps : list (str * pentry)) (ret : option pentry) : list (list str) :=
    map (fun p => entry_block (fst p) (snd p)) ps ++ match ret with Some r => [return_block r] | None => [] end.

  Lemma entry_lines_text n e sep : entry_ok e = true ->
    concat (map cat (entry_lines tk S1 n e sep)) = join S1 (entry_block n e) ++ sep.
  Proof.
    intro He. unfold entry_block. rewrite (lines_of_clean _ _ e He).
    destruct (entry_ok_shape e He) as [d t _ _ | d _ | t _]; cbn [entry_lines pe_doc pe_typ map concat join app]; rewrite ?app_nil_r;
      unfold cat, named_body, fenced, tk; cbn [fst snd]; repeat (progress (cbn [app]; rewrite <- ?app_assoc)); reflexivity.
  Qed.

  Lemma return_lines_text e sep : entry_ok e = true -> concat (map cat (return_lines S1 e sep)) = join S1 (return_block e) ++ sep.
  Proof.
    intro He. unfold return_block. rewrite (lines_of_clean _ _ e He).
    destruct (entry_ok_shape e He) as [d t _ _ | d _ | t _]; cbn [return_lines pe_doc pe_typ map concat join app]; rewrite ?app_nil_r;
      unfold cat, fenced; cbn [fst snd]; repeat (progress (cbn [app]; rewrite <- ?app_assoc)); reflexivity.
  Qed.

  Lemma blocks_of_some ps r : ps <> [] ->
    blocks_text S1 S2 (blocks_of ps (Some r)) = blocks_text S1 S2 (blocks_of ps None) ++ S2 ++ join S1 (return_block r).
  Proof.
    intro H. unfold blocks_text, blocks_of. rewrite app_nil_r, map_app, join_app_ne by (try discriminate; apply map_ne, map_ne, H). reflexivity.
  Qed.

  Lemma params_lines_text : forall ps fs, forallb param_ok ps = true -> ps <> [] ->
    concat (map cat (params_lines tk S1 S2 ps fs)) = blocks_text S1 S2 (blocks_of ps None) ++ fs.
  Proof.
    unfold blocks_of. induction ps as [|p [|q r] IH]; intros fs Hok Hne; [contradiction | |];
      apply andb_true_iff in Hok as [Hp Hok]; apply param_ok_iff in Hp as [_ He];
      rewrite params_lines_cons, map_app, concat_app, (entry_lines_text _ _ _ He).
    - cbn [params_lines map concat]. rewrite !app_nil_r. reflexivity.
    - rewrite (IH fs Hok) by discriminate. rewrite !app_nil_r.
      change (map _ (p :: q :: r)) with (entry_block (fst p) (snd p) :: map (fun p => entry_block (fst p) (snd p)) (q :: r)).
      rewrite blocks_text_cons by discriminate. rewrite <- !app_assoc. reflexivity.
  Qed.

  Lemma canon_lines_text ps ret : forallb param_ok ps = true -> ret_ok ret = true -> (ps <> [] \/ ret <> None) ->
    concat (map cat (canon_lines tk S1 S2 SF ps ret)) = blocks_text S1 S2 (blocks_of ps ret) ++ SF.
  Proof.
    intros Hp Hr Hne. unfold canon_lines. destruct ret as [r|].
    - rewrite map_app, concat_app, (return_lines_text r SF Hr). destruct ps as [|p ps']; [reflexivity|].
      rewrite params_lines_text, blocks_of_some, <- !app_assoc by (assumption || discriminate). reflexivity.
    - destruct Hne as [Pne|K]; [|contradiction]. apply (params_lines_text ps SF Hp Pne).
  Qed.

  Lemma blocks_of_ends ps ret : forallb param_ok ps = true -> ret_ok ret = true -> Forall (block_ok ends_ok) (blocks_of ps ret).
  Proof.
    intros Hp Hr. apply Forall_app. split.
    - apply Forall_map, Forall_forall. intros p Hin. rewrite forallb_forall in Hp. apply lines_of_ends, (param_ok_iff p), Hp, Hin.
    - destruct ret as [r|]; [|constructor]. constructor; [apply lines_of_ends, Hr | constructor].
  Qed.
  Lemma blocks_of_nonempty ps ret : ps <> [] \/ ret <> None -> blocks_of ps ret <> [].
  Proof. unfold blocks_of. intros [H|H] E; apply app_eq_nil in E as [E1 E2]; [destruct ps | destruct ret]; try contradiction; discriminate. Qed.
End CanonBlocks.

Lemma params_text ps : join [NL; NL] (map (emit_param true) ps) = blocks_text [NL] [NL; NL] (blocks_of (s2l "param") ps None).
Proof. unfold blocks_text, blocks_of. rewrite app_nil_r, map_map. reflexivity. Qed.

(* what args_returns asks of a text that ends visibly *)
Lemma tail_ok_no_final_nl y : tail_ok y = true -> Nat.eqb (length y) 0 = false /\ ends_nl y = false /\ num_of_nls y true = O.
Proof.
  intro H. repeat split; [destruct y; [discriminate H | reflexivity] | apply tail_ok_not_ends_nl, H | apply nls_end_tail_ok, H].
Qed.

Lemma args_returns_section ps ret : forallb param_ok ps = true -> ret_ok ret = true -> (ps <> [] \/ ret <> None) ->
  exists lead trail : bool,
    args_returns true ps ret = (if lead then [NL] else []) ++ blocks_text [NL] [NL; NL] (blocks_of (s2l "param") ps ret) ++ (if trail then [NL] else []).
Proof.
  intros Hp Hr Hne. unfold args_returns. rewrite params_text.
  set (P := blocks_text [NL] [NL; NL] (blocks_of (s2l "param") ps None)).
  assert (HP : ps <> [] -> tail_ok P = true).
  { intro Pne. apply blocks_text_ends; [apply blocks_of_nonempty; left; exact Pne | apply (blocks_of_ends _ ps None Hp eq_refl)]. }
  destruct ret as [r|].
  - assert (RT : tail_ok (emit_return true r) = true) by (apply join_ends_ok; apply (lines_of_ends _ _ r Hr)).
    set (R := emit_return true r) in *. destruct (tail_ok_no_final_nl R RT) as [RL [_ RN]].
    (* R is not empty: that settles the emitter's own test *)
    destruct R as [|r0 rr] eqn:ER; [discriminate RT|]. rewrite <- ER in *.
    destruct ps as [|p ps'].
    + exists true, true. unfold P. cbn [blocks_of map app blocks_text join length Nat.eqb orb]. rewrite RL, RN. reflexivity.
    + destruct (tail_ok_no_final_nl P (HP ltac:(discriminate))) as [PL [PE PN]]. exists false, true.
      rewrite blocks_of_some by discriminate. fold P. rewrite PL, PE, PN. cbn [orb].
      destruct (tail_ok_no_final_nl ([NL] ++ R) (tail_ok_app_r _ _ RT)) as [L1 [_ N1]]. rewrite L1, N1.
      cbn [Nat.ltb Nat.leb Nat.eqb negb andb orb]. rewrite <- !app_assoc. reflexivity.
  - destruct Hne as [Pne|K]; [|contradiction]. destruct (tail_ok_no_final_nl P (HP Pne)) as [_ [_ PN]]. exists false, false.
    rewrite PN, !app_nil_r. reflexivity.
Qed.

Theorem frame_is_render post doc ps ret :
  clean doc = true -> forallb param_ok ps = true -> ret_ok ret = true -> (ps <> [] \/ ret <> None) ->
  doc_frame post doc (args_returns true ps ret) = post (render doc ps ret).
Proof.
  intros Hd Hp Hr Hne. destruct (proj1 (clean_iff doc) Hd) as [D1 [D2 _]].
  destruct (args_returns_section ps ret Hp Hr Hne) as [lead [trail ->]].
  destruct (blocks_text_ends [NL] [NL; NL] _ (blocks_of_nonempty (s2l "param") ps ret Hne) (blocks_of_ends (s2l "param") ps ret Hp Hr)) as [X1 X2].
  rewrite (doc_frame_section post doc lead trail _ D1 D2 X1 X2), render_canon. unfold canon_text. change T_param with (COLON :: s2l "param").
  rewrite (canon_lines_text (s2l "param") [NL] [NL; NL] [NL] ps ret Hp Hr Hne), <- !app_assoc. reflexivity.
Qed.

Theorem emit_is_render doc ps ret :
  clean doc = true -> forallb param_ok ps = true -> ret_ok ret = true -> (ps <> [] \/ ret <> None) ->
  emit_rest true doc ps ret = render doc ps ret.
Proof. exact (frame_is_render (fun t => t) doc ps ret). Qed.

Theorem rest_roundtrip doc ps ret :
  clean doc = true -> forallb param_ok ps = true -> NoDup (map fst ps) -> ret_ok ret = true -> (ps <> [] \/ ret <> None) ->
  parse_rest (emit_rest true doc ps ret) = {| p_doc := doc; p_params := ps; p_ret := ret |}.
Proof. intros Hd Hp Hnd Hr Hne. rewrite (emit_is_render doc ps ret Hd Hp Hr Hne). exact (parse_render doc ps ret Hd Hp Hnd Hr Hne). Qed.

Definition drop_typ (e : pentry) : pentry := {| pe_doc := pe_doc e; pe_typ := None |}.
Definition drop_typs (ps : list (str * pentry)) : list (str * pentry) := map (fun p => (fst p, drop_typ (snd p))) ps.

Lemma lines_of_false key key_typ e : lines_of key key_typ false e = lines_of key key_typ true (drop_typ e).
Proof. unfold lines_of, drop_typ. cbn [pe_doc pe_typ nonempty]. destruct (nonempty (pe_typ e)); reflexivity. Qed.

Lemma args_returns_false ps ret : args_returns false ps ret = args_returns true (drop_typs ps) (option_map drop_typ ret).
Proof.
  unfold args_returns, drop_typs. rewrite map_map.
  assert (E : map (emit_param false) ps = map (fun x => emit_param true (fst x, drop_typ (snd x))) ps).
  { apply map_ext. intros [n e]. unfold emit_param. cbn [fst snd]. rewrite lines_of_false. reflexivity. }
  rewrite E. destruct ret as [r|]; cbn [option_map]; [|reflexivity].
  unfold emit_return. rewrite lines_of_false. reflexivity.
Qed.

Theorem emit_false_is_emit_true_without_types doc ps ret :
  emit_rest false doc ps ret = emit_rest true doc (drop_typs ps) (option_map drop_typ ret).
Proof. unfold emit_rest. rewrite args_returns_false. reflexivity. Qed.
