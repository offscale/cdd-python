From CDD Require Import PyStr RestDoc RestDocProofs.

Theorem rtype_line_value s body :
  st_ret (parse_token_line s (s2l ":rtype:" ++ body))
  = Some (set_typ (match st_ret s with Some e => e | None => empty_entry end) (typ_value (strip body))).
Proof. change (s2l ":rtype:" ++ body) with (T_rtype ++ COLON :: body). rewrite parse_rtyp_line. reflexivity. Qed.

Example return_line_with_colons :
  st_ret (parse_token_line init_state (s2l ":return: exit status: 0 on success"))
  = Some {| pe_doc := Some (s2l "exit status: 0 on success"); pe_typ := None |}.
Proof. vm_compute. reflexivity. Qed.
