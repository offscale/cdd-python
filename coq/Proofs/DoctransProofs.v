From Coq Require Import Lia.
From CDD Require Import PyStr PyStrFacts Doctrans.

Lemma set_nth_length {A} i (v : A) l : length (set_nth i v l) = length l.
Proof. revert i; induction l as [|x r IH]; intros [|k]; cbn; auto. Qed.
Lemma set_nth_other {A} i j (v : A) l : i <> j -> nth_error (set_nth i v l) j = nth_error l j.
Proof.
  revert i j; induction l as [|x r IH]; intros [|i] [|j] H; cbn; auto; try congruence.
Qed.

Theorem apply_repl_untouched repl : forall nodes j,
  ~ In j (map fst repl) -> nth_error (apply_repl repl nodes) j = nth_error nodes j.
Proof.
  unfold apply_repl. induction repl as [|[i v] r IH]; intros nodes j H; cbn [fold_left]; [reflexivity|].
  rewrite IH; [|intro Hin; apply H; right; exact Hin].
  apply set_nth_other. intro E. apply H. left. cbn. exact E.
Qed.
Theorem apply_repl_length repl : forall nodes, length (apply_repl repl nodes) = length nodes.
Proof.
  unfold apply_repl. induction repl as [|[i v] r IH]; intro nodes; cbn [fold_left]; [reflexivity|].
  rewrite IH. apply set_nth_length.
Qed.

Lemma atomic_spec : forall items seen i c,
  atomic seen items = true -> nth_error items i = Some (ECall c) -> seen = false /\ truncated_when_raising_at items i = false.
Proof.
  unfold truncated_when_raising_at. induction items as [|e r IH]; intros seen [|i] c Ha Hc; try discriminate; cbn in Hc.
  - injection Hc as ->. cbn in Ha. destruct seen; [discriminate | split; reflexivity].
  - destruct e; cbn in Ha |- *; [apply andb_prop in Ha as [_ Ha]| |]; destruct (IH _ i c Ha Hc) as [Hs Ht]; [| discriminate |]; split; assumption.
Qed.
Theorem set_nth_concat {A} : forall i (v : list A) l, (i < length l)%nat ->
  concat (set_nth i v l) = concat (firstn i l) ++ v ++ concat (skipn (S i) l).
Proof.
  induction i as [|i IH]; intros v [|x r] H; cbn in H; try lia; cbn [set_nth firstn skipn concat].
  - reflexivity.
  - rewrite IH by lia. rewrite app_assoc. reflexivity.
Qed.

Lemma rfind_last_colon h : rfind (s2l ":") (h ++ s2l ":") = slen h.
Proof.
  unfold rfind. rewrite rev_app_distr. cbn [s2l rev app find find_from startswith]. rewrite N.eqb_refl. cbn [andb]. rewrite slen_app. cbn. lia.
Qed.
Lemma rpartition_last h : rpartition_colon (h ++ s2l ":") = (h, s2l ":", []).
Proof.
  unfold rpartition_colon. rewrite rfind_last_colon. pose proof (slen_nonneg h) as Hn.
  assert (T : slice_to (h ++ s2l ":") (slen h) = h) by (apply (slice_to_app _ h (s2l ":")); reflexivity).
  assert (F : slice_from (h ++ s2l ":") (slen h + 1) = []) by (apply slice_from_end; rewrite slen_app; apply Z.le_refl).
  destruct (slen h); [| |lia]; rewrite T, F; reflexivity.
Qed.

Lemma find_cst_from_spec : forall l i lineno kind name k,
  find_cst_from i l lineno kind name = Some k ->
  exists j c, k = (i + j)%nat /\ nth_error l j = Some c /\ cst_matches lineno kind name c = true
              /\ forall j' c', (j' < j)%nat -> nth_error l j' = Some c' -> cst_matches lineno kind name c' = false.
Proof.
  induction l as [|c r IH]; intros i lineno kind name k H; [discriminate|]. cbn [find_cst_from] in H.
  destruct (cst_matches lineno kind name c) eqn:E.
  - injection H as <-. exists O, c. repeat split; [lia | exact E |]. intros j' c' Hj. lia.
  - destruct (IH (S i) lineno kind name k H) as [j [c2 [Hk [Hn [Hm Hf]]]]].
    exists (S j), c2. repeat split; [lia | exact Hn | exact Hm |].
    intros [|j'] c' Hj Hn'; cbn in Hn'; [injection Hn' as <-; exact E | apply (Hf j' c'); [lia | exact Hn']].
Qed.
