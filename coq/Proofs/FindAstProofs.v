(* What find_in_ast returns for a class attribute (find_attr) and for a function parameter (find_param) as long as the shared loop
   state is not disturbed, and witnesses of what happens otherwise. *)
From Coq Require Import Lia.
From CDD Require Import PyStr PyStrFacts Rewrite FindAst.

(* a sibling that leaves query / current_search / cursor as they are (child_node aside) *)
Definition inert (search : list str) (parent : list str) (q : str) (cs : list str) (x : node) : bool :=
  negb (loc_is (node_loc parent x) search) &&
  match x with
  | NFunc _ args _ _ _ => (match cs with [] => true | _ => false end) && (match find_arg q args O with None => true | Some _ => false end)
  | NAnn t _ _ => negb (str_eqb t q)
  | NClass n _ => negb (str_eqb n q)
  | _ => true
  end.

Lemma scan_inert search prefix parent q cs cur : forall pre i rest ch,
  forallb (inert search parent q cs) pre = true ->
  exists ch', scan search prefix parent i (pre ++ rest) (q, cs, cur, ch) = scan search prefix parent (i + length pre) rest (q, cs, cur, ch').
Proof.
  induction pre as [|x pre IH]; intros i rest ch H.
  - exists ch. cbn [app length]. rewrite Nat.add_0_r. reflexivity.
  - cbn [forallb] in H. apply andb_true_iff in H as [Hx Hp]. unfold inert in Hx. apply andb_true_iff in Hx as [L K]. apply negb_true_iff in L.
    cbn [app scan length]. rewrite L. replace (i + S (length pre))%nat with (S i + length pre)%nat by lia.
    destruct x as [n body|n args kw dfl bid|t a v|t v|k].
    2: { destruct cs as [|c cs']; [|discriminate K]. destruct (find_arg q args 0); [discriminate K|]. apply IH, Hp. }
    all: try (apply negb_true_iff in K; rewrite K); apply IH, Hp.
Qed.

Lemma strs_eqb_refl l : strs_eqb l l = true.
Proof. induction l as [|x l IH]; cbn; [reflexivity|]. rewrite str_eqb_refl, IH. reflexivity. Qed.

(* first hypothesis: the pass does not end at once (child_node, left by the previous pass, is not called like the last name) *)
Lemma pass fuel search q t prefix parent pre rest ch :
  (match t with [] => true | _ => false end) && (match fst ch with Some n => str_eqb n q | None => false end) = false ->
  forallb (inert search parent q t) pre = true ->
  exists ch', outer (S fuel) search (q :: t) (CList prefix parent (pre ++ rest)) ch =
    match scan search prefix parent (length pre) rest (q, t, CList prefix parent (pre ++ rest), ch') with
    | inl r => r
    | inr (_, cs', cur', ch'') => outer fuel search cs' cur' ch''
    end.
Proof.
  intros Hch Hp. cbn [outer]. rewrite Hch.
  destruct (scan_inert search prefix parent q t (CList prefix parent (pre ++ rest)) pre O rest ch Hp) as [ch' E].
  exists ch'. rewrite E. reflexivity.
Qed.

Lemma outer_last fuel search q prefix parent pre y post ch :
  match fst ch with Some n => str_eqb n q | None => false end = false ->
  forallb (inert search parent q []) pre = true -> node_loc parent y = Some search ->
  outer (S fuel) search [q] (CList prefix parent (pre ++ y :: post)) ch = FNode (prefix ++ [length pre]).
Proof.
  intros Hch Hp Hy. destruct (pass fuel search q [] prefix parent pre (y :: post) ch Hch Hp) as [ch' ->].
  cbn [scan]. rewrite Hy. cbn [loc_is]. rewrite strs_eqb_refl. reflexivity.
Qed.

(* C and a differ: child_node still holds the class when the pass for `a` starts, and a pass for the last name ends at once with
   child_node if that node is called like the name -- with C = a the class itself would be returned *)
Theorem find_attr C a pre post bpre y bpost :
  forallb (inert [C; a] [] C [a]) pre = true -> str_eqb C a = false ->
  forallb (inert [C; a] [C] a []) bpre = true -> node_loc [C] y = Some [C; a] ->
  find_in_ast [C; a] (pre ++ NClass C (bpre ++ y :: bpost) :: post) = FNode [length pre; length bpre].
Proof.
  intros Hp Hne Hbp Hy. destruct (pass 2 [C; a] C [a] [] [] pre (NClass C (bpre ++ y :: bpost) :: post) (None, []) eq_refl Hp) as [ch' E].
  unfold find_in_ast. cbn [length]. rewrite E. cbn [scan node_loc app loc_is strs_eqb]. rewrite !str_eqb_refl. cbn [andb].
  exact (outer_last 1 [C; a] a [length pre] [C] bpre y bpost (Some C, [length pre]) Hne Hbp Hy).
Qed.

(* the name of the function is never compared: f.p finds the parameter p of the first function that has one *)
Theorem find_param f g p pre args kw dfl bid post k :
  forallb (inert [f; p] [] f [p]) pre = true -> find_arg p args O = Some k ->
  find_in_ast [f; p] (pre ++ NFunc g args kw dfl bid :: post) = FArg [length pre] k.
Proof.
  intros Hp Hk. destruct (pass 2 [f; p] f [p] [] [] pre (NFunc g args kw dfl bid :: post) (None, []) eq_refl Hp) as [ch' E].
  unfold find_in_ast. cbn [length]. rewrite E. cbn [scan node_loc app loc_is strs_eqb]. rewrite andb_false_r, Hk. reflexivity.
Qed.

Definition A (n : string) : argd := mkArg (s2l n) None.
Example earlier_function_wins :
  find_in_ast [s2l "f"; s2l "p"] [NFunc (s2l "g") [A "p"] [] [] 1; NFunc (s2l "f") [A "x"; A "p"] [] [] 2] = FArg [0%nat] 0.
Proof. vm_compute. reflexivity. Qed.
(* the function consumes "a" from the search, so the class is never entered *)
Example function_before_class :
  find_in_ast [s2l "C"; s2l "a"] [NFunc (s2l "g") [A "x"] [] [] 1; NClass (s2l "C") [NAnn (s2l "a") (s2l "int") None]] = FNone.
Proof. vm_compute. reflexivity. Qed.
Example parameter_shadows_name :
  find_in_ast [s2l "n"] [NFunc (s2l "g") [A "n"] [] [] 1; NClass (s2l "n") []] = FArg [0%nat] 0.
Proof. vm_compute. reflexivity. Qed.
Example kwonly_not_found :
  find_in_ast [s2l "f"; s2l "k"] [NFunc (s2l "f") [A "x"] [A "k"] [] 1] = FNone.
Proof. vm_compute. reflexivity. Qed.
(* the for loop is entered with an ast.arg as cursor (TypeError) *)
Example path_through_parameter_raises :
  find_in_ast [s2l "f"; s2l "x"; s2l "y"] [NFunc (s2l "f") [A "x"] [] [] 1] = FErr.
Proof. vm_compute. reflexivity. Qed.
(* an ordinary module; the last conjunct is the first hypothesis of find_attr *)
Example find_examples :
  let m := [NOther 1; NAssign (s2l "K") (s2l "1"); NClass (s2l "C") [NOther 2; NAnn (s2l "a") (s2l "int") (Some (s2l "5")); NFunc (s2l "run") [A "self"; A "b"] [] [] 3];
            NFunc (s2l "f") [A "x"; A "p"] [] [s2l "1"] 4] in
  find_in_ast [s2l "C"] m = FNode [2%nat] /\ find_in_ast [s2l "C"; s2l "a"] m = FNode [2%nat; 1%nat] /\ find_in_ast [s2l "f"; s2l "p"] m = FArg [3%nat] 1
  /\ forallb (inert [s2l "C"; s2l "a"] [] (s2l "C") [s2l "a"]) (firstn 2 m) = true.
Proof. vm_compute. repeat split; reflexivity. Qed.
