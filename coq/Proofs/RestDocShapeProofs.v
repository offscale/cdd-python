(* An invariant of the ReST line parser of Model/RestDoc.v, over EVERY list of segments (no domain restriction): the parameter names
   read so far are pairwise distinct and carry no leading asterisk. *)
From CDD Require Import PyStr PyStrFacts NameSan NameSanProofs RestDoc.

Definition nostar (n : str) : Prop := startswith [STAR] n = false.

Lemma norm_name_sanitise n : norm_name n = sanitise_name n.
Proof. reflexivity. Qed.
Lemma norm_name_nostar n : nostar (norm_name n).
Proof. rewrite norm_name_sanitise. apply negb_true_iff, sanitise_no_leading_star. Qed.

Lemma set_assoc_keys k v : forall l, map fst (set_assoc k v l) = if existsb (str_eqb k) (map fst l) then map fst l else map fst l ++ [k].
Proof.
  induction l as [|[k' v'] l IH]; cbn [set_assoc map existsb fst]; [reflexivity|].
  destruct (str_eqb k k') eqn:E; cbn [map fst orb].
  - apply str_eqb_eq in E. subst k'. reflexivity.
  - rewrite IH. destruct (existsb (str_eqb k) (map fst l)); reflexivity.
Qed.

Definition names_ok (l : list (str * pentry)) : Prop := NoDup (map fst l) /\ Forall nostar (map fst l).

Lemma set_assoc_ok k v l : nostar k -> names_ok l -> names_ok (set_assoc k v l).
Proof.
  intros Hk [N F]. unfold names_ok. rewrite set_assoc_keys. destruct (existsb (str_eqb k) (map fst l)) eqn:E; [split; assumption|].
  split.
  - apply NoDup_snoc; [exact N | apply existsb_str_false, E].
  - apply Forall_app. split; [exact F | constructor; [exact Hk | constructor]].
Qed.

Definition inv (s : pstate) : Prop := names_ok (st_params s) /\ match st_cur s with Some (n, _) => nostar n | None => True end.

Lemma flush_ok s : inv s -> names_ok (flush s).
Proof.
  intros [K C]. unfold flush. destruct (st_cur s) as [[n e]|]; [|exact K].
  destruct (startswith [STAR] n); [exact K | apply set_assoc_ok; assumption].
Qed.

Lemma parse_token_line_inv s line : inv s -> inv (parse_token_line s line).
Proof.
  intros I. pose proof I as [K C]. unfold parse_token_line.
  destruct (existsb (fun t => startswith t line) return_tokens); [split; [exact K | exact C]|].
  destruct (st_cur s) as [[n e]|] eqn:EC.
  - destruct (str_eqb n _); (split; [|apply norm_name_nostar]); [exact K | exact (flush_ok s I)].
  - split; [exact K | apply norm_name_nostar].
Qed.

Lemma parse_seg_inv s sg : inv s -> inv (parse_seg s sg).
Proof.
  intros I. destruct sg as [[|] line]; cbn [parse_seg]; [apply parse_token_line_inv, I|].
  destruct (st_doc s); exact I.
Qed.

Lemma fold_inv : forall segs s, inv s -> inv (fold_left parse_seg segs s).
Proof. induction segs as [|sg r IH]; intros s I; [exact I|]. cbn [fold_left]. apply IH, parse_seg_inv, I. Qed.

