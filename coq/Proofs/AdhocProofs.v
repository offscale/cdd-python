(* The phase-0 filter of parse_adhoc_doc_for_typ lets through only word characters, the three
   separators and whitespace -- for every input string; and the candidate type it hands on is a value of the constant table
   (first_some_assoc). *)
From CDD Require Import PyStr PyStrFacts Adhoc.

Definition okw (w : str) : Prop := forallb allowed w = true.
Definition Inv (s : st) : Prop := Forall okw (closed_rev s) /\ okw (cur_rev s).

Lemma step_inv prev i c next s : Inv s -> Inv (step prev i c next s).
Proof.
  intros [Hc Hcur]. unfold step.
  destruct (is_word_char c || _) eqn:Hw; [|destruct (is_sep_char c || is_space c) eqn:Hs; [|split; assumption]].
  - (* c joins the open word: a word character, or a full stop *)
    split; [exact Hc|]. unfold okw. cbn [cur_rev forallb]. rewrite Hcur, andb_true_r. unfold allowed, is_sep_char.
    destruct (is_word_char c); [reflexivity|]. apply andb_true_iff in Hw as [[Hw _]%andb_true_iff _]. unfold DOT in Hw. rewrite Hw. reflexivity.
  - split; [|reflexivity]. cbn [closed_rev]. repeat constructor; [|unfold okw; rewrite forallb_rev; exact Hcur | exact Hc].
    unfold okw, allowed. cbn [forallb]. rewrite <- orb_assoc, Hs, orb_true_r. reflexivity.
Qed.

Lemma loop_inv rest : forall prev i s, Inv s -> Inv (loop prev i rest s).
Proof.
  induction rest as [|c r IH]; intros prev i s H; cbn; [exact H|].
  apply IH. apply step_inv. exact H.
Qed.

Lemma words_ok doc : Forall okw (fst (fst (words_of_doc doc))).
Proof.
  unfold words_of_doc. cbn [fst].
  destruct (loop_inv doc (last_opt doc) 0%nat (mkSt [] [] (-1)%Z false)) as [Hc Hcur].
  { split; [constructor|reflexivity]. }
  apply Forall_rev. constructor; [|exact Hc].
  unfold okw. rewrite forallb_rev. exact Hcur.
Qed.

Lemma concat_ok ws : Forall okw ws -> okw (concat ws).
Proof.
  induction 1 as [|w ws Hw _ IH]; [reflexivity|].
  unfold okw in *. cbn. rewrite forallb_app, Hw, IH. reflexivity.
Qed.
Lemma sentence_ok ws a b : Forall okw ws -> okw (concat (lslice ws a b)).
Proof. intro H. apply concat_ok. unfold lslice. apply Forall_firstn, Forall_skipn, H. Qed.

Lemma assoc_in k t v : assoc k t = Some v -> In v (map snd t).
Proof.
  induction t as [|[a b] t IH]; cbn; [discriminate|].
  destruct (str_eqb k a); [intro H; injection H as <-; left; reflexivity | intro H; right; auto].
Qed.
Lemma first_some_assoc ws t v : first_some (fun w => assoc w t) ws = Some v -> In v (map snd t).
Proof.
  induction ws as [|w ws IH]; cbn; [discriminate|].
  destruct (assoc w t) eqn:E; [intro H; injection H as <-; eapply assoc_in; eauto | auto].
Qed.
