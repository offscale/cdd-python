From Coq Require Import Lia.
From CDD Require Import PyStr PyStrFacts SqlPk.
Open Scope N_scope.

Lemma is_pk_mark_doc d : is_pk (mark_doc d) = true.
Proof. destruct d; reflexivity. Qed.

Lemma count_pk_app a b : count_pk (a ++ b) = (count_pk a + count_pk b)%nat.
Proof. unfold count_pk. rewrite map_app, filter_app, app_length. reflexivity. Qed.

Lemma count_zero ps : existsb is_pk (map snd ps) = false -> count_pk ps = O.
Proof.
  unfold count_pk. induction ps as [|[k d] r IH]; cbn; [reflexivity|].
  intro H. apply orb_false_iff in H as [H1 H2]. rewrite H1. apply IH. exact H2.
Qed.

Lemma mark_not_in n ps : ~ In n (map fst ps) -> mark n ps = ps.
Proof.
  induction ps as [|[k d] r IH]; cbn; [reflexivity|]. intro H.
  destruct (str_eqbP k n) as [->|_]; [destruct H; auto|]. rewrite IH; auto.
Qed.

Lemma count_mark n ps : NoDup (map fst ps) -> In n (map fst ps) -> count_pk ps = O -> count_pk (mark n ps) = 1%nat.
Proof.
  unfold count_pk. induction ps as [|[k d] r IH]; cbn [map fst snd filter mark]; intros Hnd Hin Hc; [contradiction|].
  inversion Hnd as [|? ? Hnotin Hnd']; subst.
  destruct (is_pk d) eqn:Ed; [discriminate Hc|].
  destruct (str_eqbP k n) as [->|Hne]; cbn [map fst snd filter].
  - rewrite (mark_not_in n r Hnotin), is_pk_mark_doc. cbn [length]. rewrite Hc. reflexivity.
  - rewrite Ed. destruct Hin as [Hin|Hin]; [contradiction|]. apply IH; assumption.
Qed.

Lemma count_present ps : existsb is_pk (map snd ps) = true -> (count_pk ps <= 1)%nat -> count_pk ps = 1%nat.
Proof.
  intros E Hle. apply existsb_exists in E as [d Hd]. apply filter_In in Hd. unfold count_pk in *.
  destruct (filter is_pk (map snd ps)) as [|? [|]]; [contradiction | reflexivity | cbn in Hle; lia].
Qed.

Lemma count_id_fallback ps : NoDup (map fst ps) -> count_pk ps = O ->
  count_pk (if mem_str ID (map fst ps) then mark ID ps else ps ++ [(ID, PK)]) = 1%nat.
Proof.
  intros Hnd Hz. destruct (mem_strP ID (map fst ps)); [apply count_mark; assumption|].
  rewrite count_pk_app, Hz. reflexivity.
Qed.
