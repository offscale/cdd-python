(* The two halves of the argparse hop put together: what the emitter registers (Exec.argparse_action) as a call the transcribed reader
   (ArgRead.parse_out_param) is run on, and the renderings the reader's answer is compared with. *)
From CDD Require Import PyStr Norm Exec ArgRead.
Open Scope N_scope.

Definition base_name (b : base) : str :=
  match b with BInt => s2l "int" | BFloat => s2l "float" | BStr => s2l "str" | BBool => s2l "bool" end.
Definition lit_text (ms : list str) : str := s2l "Literal[" ++ join (s2l ", ") (map (fun m => s2l "'" ++ m ++ s2l "'") ms) ++ s2l "]".
Definition render_inner (i : inner) : str := match i with IBase b => base_name b | ILit ms => lit_text ms end.
Definition render_ctyp (t : ctyp) : str := if t_opt t then s2l "Optional[" ++ render_inner (t_inner t) ++ s2l "]" else render_inner (t_inner t).

Definition pyval_of_str (s : str) : pyval :=
  {| v_repr := s2l "'" ++ s ++ s2l "'"; v_str := s; v_empty := match s with [] => true | _ => false end; v_is_str := true |}.
Definition pyval_of_cdef (d : cdef) : option pyval :=
  match d with
  | DAbs | DNone => None
  | DInt z => Some {| v_repr := Z_to_str z; v_str := Z_to_str z; v_empty := false; v_is_str := false |}
  | DFloat r => Some {| v_repr := r; v_str := r; v_empty := false; v_is_str := false |}
  | DBool b => Some {| v_repr := if b then s2l "True" else s2l "False"; v_str := if b then s2l "True" else s2l "False"; v_empty := false; v_is_str := false |}
  | DStr s => Some (pyval_of_str s)
  end.

(* no help text: descriptions are not part of the table Norm.N0 FArgparse *)
Definition call_of (name : str) (a : action) : argcall :=
  {| a_name := name; ArgRead.a_type := Exec.a_type a; ArgRead.a_choices := option_map (map pyval_of_str) (Exec.a_choices a); a_help := None;
     ArgRead.a_required := Exec.a_required a; ArgRead.a_default := pyval_of_cdef (Exec.a_default a); a_action := None |}.

Definition adefault_of (d : cdef) : option adefault := option_map AVal (pyval_of_cdef d).

(* the part of the table's domain the two halves agree on *)
Definition chain_dom (p : cparam) : bool :=
  let '(t, d) := p in
  well_typed p
  && match d with DNone => t_opt t | _ => true end
  && match t_inner t with ILit ms => negb (t_opt t) || negb (contains (s2l "Optional") (lit_text ms)) | IBase _ => true end.

Lemma lit_choices ms : handle_choices (map pyval_of_str ms) (s2l "str") = Some (lit_text ms).
Proof. unfold handle_choices, lit_text. rewrite map_map. reflexivity. Qed.

Lemma parse_bare c : a_help c = None -> a_action c = None ->
  parse_out_param c =
  let typ0 := match ArgRead.a_type c with Some t => handle_value t | None => s2l "str" end in
  option_map (fun typ1 =>
      {| r_name := a_name c; r_doc := None;
         r_typ := if negb (ArgRead.a_required c) && negb (contains (s2l "Optional") typ1) then s2l "Optional[" ++ typ1 ++ s2l "]" else typ1;
         r_default := match ArgRead.a_default c with
                      | Some d => Some (AVal d)
                      | None => if ArgRead.a_required c then Some (match simple_default typ0 with Some v => AVal v | None => ANoneStr end) else None
                      end |})
    (match ArgRead.a_choices c with Some elts => handle_choices elts typ0 | None => Some typ0 end).
Proof.
  intros Hh Ha. unfold parse_out_param. rewrite Hh, Ha.
  destruct (ArgRead.a_default c); reflexivity.
Qed.

Lemma base_type_read b o d :
  match Exec.a_type (argparse_action (mkT o (IBase b), d)) with Some t => handle_value t | None => s2l "str" end = base_name b.
Proof. destruct b; reflexivity. Qed.
Lemma base_not_optional b : contains (s2l "Optional") (base_name b) = false.
Proof. destruct b; reflexivity. Qed.

Example argparse_row_examples :
  chain_dom (mkT false (IBase BInt), DAbs) = true /\ chain_dom (mkT true (ILit [s2l "a"; s2l "b"]), DStr (s2l "a")) = true
  /\ option_map r_typ (parse_out_param (call_of (s2l "n") (argparse_action (mkT true (ILit [s2l "b"; s2l "a"]), DAbs)))) = Some (s2l "Optional[Literal['b', 'a']]").
Proof. repeat split; vm_compute; reflexivity. Qed.
