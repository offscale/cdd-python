(* Deciding Model/ImportSem.v:pair_ok for ALL ordered pairs of a list of modules: the first import of every module is run once and the
   second import of a pair continues from that state, each unordered pair is checked once for both orders, and two states are compared
   as trees before their name lists are built. *)
From Coq Require Import List PArith Bool.
Import ListNotations.
From CDD Require Import ImportSem.

Fixpoint ps_eqb (a b : PS.t) : bool :=
  match a, b with
  | PS.Leaf, PS.Leaf => true
  | PS.Node l o r, PS.Node l' o' r' => Bool.eqb o o' && ps_eqb l l' && ps_eqb r r'
  | _, _ => false
  end.
Lemma ps_eqb_eq : forall a b, ps_eqb a b = true -> a = b.
Proof.
  induction a as [|l IHl o r IHr]; destruct b as [|l' o' r']; cbn; try discriminate; [reflexivity|].
  intro H. apply andb_true_iff in H as [H Hr]. apply andb_true_iff in H as [Ho Hl].
  rewrite (eqb_prop _ _ Ho), (IHl _ Hl), (IHr _ Hr). reflexivity.
Qed.

(* [s_sub] is left out: names_of does not look at it *)
Definition mstate_eqb (x y : mstate) : bool := Bool.eqb (s_loaded x) (s_loaded y) && ps_eqb (s_names x) (s_names y).
Fixpoint state_eqb (a b : state) : bool :=
  match a, b with
  | PM.Leaf _, PM.Leaf _ => true
  | PM.Node l o r, PM.Node l' o' r' =>
      match o, o' with Some x, Some y => mstate_eqb x y | None, None => true | _, _ => false end && state_eqb l l' && state_eqb r r'
  | _, _ => false
  end.

Definition name_row (kv : positive * mstate) := (fst kv, (s_loaded (snd kv), PS.elements (s_names (snd kv)))).
Lemma names_of_rows st : names_of st = map name_row (PM.elements st).
Proof. unfold names_of. apply map_ext. intros [k ms]. reflexivity. Qed.

Lemma state_eqb_rows : forall a b i, state_eqb a b = true -> map name_row (PM.xelements a i) = map name_row (PM.xelements b i).
Proof.
  induction a as [|l IHl o r IHr]; destruct b as [|l' o' r']; cbn [state_eqb]; try discriminate; [reflexivity|].
  intros i H. apply andb_true_iff in H as [H Hr]. apply andb_true_iff in H as [Ho Hl].
  destruct o as [x|], o' as [y|]; try discriminate; cbn [PM.xelements]; rewrite !map_app; cbn [map];
    rewrite (IHl _ _ Hl), (IHr _ _ Hr); [|reflexivity].
  unfold mstate_eqb in Ho. apply andb_true_iff in Ho as [H1 H2]. unfold name_row. cbn [fst snd].
  rewrite (eqb_prop _ _ H1), (ps_eqb_eq _ _ H2). reflexivity.
Qed.

Lemma pos_list_eqb_refl l : pos_list_eqb l l = true.
Proof. induction l as [|x l IH]; cbn; [reflexivity|]. rewrite Pos.eqb_refl. exact IH. Qed.
Lemma names_eqb_refl l : names_eqb l l = true.
Proof. induction l as [|[k [b ns]] l IH]; cbn; [reflexivity|]. rewrite Pos.eqb_refl, eqb_reflx, pos_list_eqb_refl. exact IH. Qed.

Lemma pos_list_eqb_sym : forall a b, pos_list_eqb a b = pos_list_eqb b a.
Proof. induction a as [|x a IH]; destruct b as [|y b]; cbn; try reflexivity. rewrite Pos.eqb_sym, IH. reflexivity. Qed.
Lemma names_eqb_sym : forall a b, names_eqb a b = names_eqb b a.
Proof.
  induction a as [|[k [l ns]] a IH]; destruct b as [|[k' [l' ns']] b]; cbn; try reflexivity.
  rewrite Pos.eqb_sym, (pos_list_eqb_sym ns), IH. destruct l, l'; reflexivity.
Qed.

(* equal name lists can sit in trees of different shape: pair_ok's own comparison is the fallback, so nothing it accepts is rejected *)
Definition same_names (s1 s2 : state) : bool := state_eqb s1 s2 || names_eqb (names_of s1) (names_of s2).
Lemma same_names_sound s1 s2 : same_names s1 s2 = true -> names_eqb (names_of s1) (names_of s2) = true.
Proof.
  unfold same_names. destruct (state_eqb s1 s2) eqn:E; [intros _|exact (fun H => H)].
  rewrite !names_of_rows. unfold PM.elements. rewrite (state_eqb_rows _ _ _ E). apply names_eqb_refl.
Qed.

Section Pairs.
  Variable modules : list (positive * modinfo).
  Variables root_name root_mod : positive.
  Variable fuel : nat.
  Notation chain := (list positive).

  (* M is mods modules, bound once by the let of pairs_ok: written out here, under the binder of r and c, the map of all modules
     would be built again at every second import *)
  Definition then_import (M : PM.t modinfo) (r : result) (c : chain) : result :=
    match r with Ok st => import_chain M root_name root_mod fuel st c | e => e end.
  Lemma run_two a b :
    run modules root_name root_mod fuel [a; b] = then_import (mods modules) (run modules root_name root_mod fuel [a]) b.
  Proof. reflexivity. Qed.

  Definition pair_from M (x y : chain * result) : bool :=
    match then_import M (snd x) (fst y), then_import M (snd y) (fst x) with
    | Ok s1, Ok s2 => same_names s1 s2
    | _, _ => false
    end.
  Fixpoint triangle M (l : list (chain * result)) : bool :=
    match l with [] => true | x :: r => pair_from M x x && forallb (pair_from M x) r && triangle M r end.
  Definition pairs_ok (public : list chain) : bool :=
    let M := mods modules in triangle M (map (fun a => (a, run modules root_name root_mod fuel [a])) public).

  Lemma pair_ok_sym a b : pair_ok modules root_name root_mod fuel (a, b) = pair_ok modules root_name root_mod fuel (b, a).
  Proof.
    unfold pair_ok. destruct (run modules root_name root_mod fuel [a; b]), (run modules root_name root_mod fuel [b; a]); try reflexivity.
    apply names_eqb_sym.
  Qed.

  Lemma pair_ok_single a b :
    pair_ok modules root_name root_mod fuel (a, b) = true -> single_ok modules root_name root_mod fuel a = true.
  Proof.
    unfold pair_ok, single_ok. rewrite run_two. destruct (run modules root_name root_mod fuel [a]); [reflexivity | discriminate ..].
  Qed.

  Lemma pair_from_sound a b :
    pair_from (mods modules) (a, run modules root_name root_mod fuel [a]) (b, run modules root_name root_mod fuel [b]) = true ->
    pair_ok modules root_name root_mod fuel (a, b) = true.
  Proof.
    unfold pair_from, pair_ok. cbn [fst snd]. rewrite !run_two.
    destruct (then_import _ _ b); try discriminate. destruct (then_import _ _ a); try discriminate. apply same_names_sound.
  Qed.

  Theorem pairs_ok_sound public : pairs_ok public = true ->
    forall a b, In a public -> In b public -> pair_ok modules root_name root_mod fuel (a, b) = true.
  Proof.
    unfold pairs_ok. cbv zeta. induction public as [|x r IH]; intros H a b Ha Hb; [destruct Ha|].
    cbn [map triangle] in H. apply andb_true_iff in H as [H Hr]. apply andb_true_iff in H as [Hx Hxr].
    rewrite forallb_forall in Hxr.
    assert (Row : forall c, In c r -> pair_ok modules root_name root_mod fuel (x, c) = true).
    { intros c Hc. apply pair_from_sound, Hxr. exact (in_map _ r c Hc). }
    destruct Ha as [<-|Ha], Hb as [<-|Hb].
    - apply pair_from_sound, Hx.
    - apply Row, Hb.
    - rewrite pair_ok_sym. apply Row, Ha.
    - apply (IH Hr); assumption.
  Qed.
End Pairs.
