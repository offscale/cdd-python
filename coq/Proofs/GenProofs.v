From Coq Require Import Permutation.
From CDD Require Import PyStr PyStrFacts Gen.
Open Scope N_scope.

Lemma fmt_injective pre suf a b : fmt pre suf a = fmt pre suf b -> a = b.
Proof. unfold fmt. intro H. apply app_inv_head in H. apply app_inv_tail in H. exact H. Qed.

Lemma all_names_length pre suf names : length (all_names pre suf names) = length names.
Proof. apply map_length. Qed.

Lemma all_names_nodup pre suf names : NoDup names -> NoDup (all_names pre suf names).
Proof. intro H. apply FinFun.Injective_map_NoDup; [|exact H]. intros a b. apply fmt_injective. Qed.

Lemma evi_plain s : plain_identifier s = true -> ensure_valid_identifier s = s.
Proof.
  destruct s as [|c r]; [discriminate|]. unfold plain_identifier, ensure_valid_identifier.
  intro H. apply andb_true_iff in H as [H Hk]. apply andb_true_iff in H as [Hd Hv].
  apply negb_true_iff in Hk. rewrite Hk. apply negb_true_iff in Hd. rewrite Hd.
  rewrite (filter_id _ _ Hv). reflexivity.
Qed.

Lemma filter_partition3 (l : list node) :
  Permutation (filter is_future l ++ filter is_plain_import l ++ filter (fun n => negb (is_import n)) l) l.
Proof.
  induction l as [|x l IH]; [constructor|].
  destruct x as [[|] i|i]; cbn.
  - constructor. exact IH.
  - symmetry. apply Permutation_cons_app. symmetry. exact IH.
  - rewrite app_assoc. symmetry. apply Permutation_cons_app. rewrite <- app_assoc. symmetry. exact IH.
Qed.

(* the docstring is the first node and no import: reorder puts [firstn 1 body] in front and filters the rest of the whole body *)
Theorem reorder_permutation has_doc body :
  (has_doc = true -> exists i r, body = NOther i :: r) ->
  Permutation (reorder has_doc body) body.
Proof.
  intro Hd. unfold reorder. destruct has_doc.
  - destruct (Hd eq_refl) as [i [r ->]]. cbn. constructor. apply filter_partition3.
  - cbn. apply filter_partition3.
Qed.

Theorem reorder_others_in_order has_doc body :
  (has_doc = true -> exists i r, body = NOther i :: r) ->
  filter (fun n => negb (is_import n)) (reorder has_doc body) = filter (fun n => negb (is_import n)) body.
Proof.
  intro Hd. unfold reorder.
  rewrite !filter_app, (filter_filter_nil _ is_future), (filter_filter_nil _ is_plain_import) by (intros [[]|]; (reflexivity || discriminate)).
  rewrite (filter_id _ (filter _ _)) by apply forallb_filter.
  destruct has_doc; [destruct (Hd eq_refl) as [i [r ->]]|]; reflexivity.
Qed.

Lemma kwlist_valid : forallb (fun k => forallb valid_ident_char k) kwlist = true.
Proof. vm_compute. reflexivity. Qed.

(* the [s] of the third case is the string with an underscore in front of a leading digit *)
Lemma evi_cases (P : str -> Prop) :
  P [95] -> (forall k, iskeyword k = true -> P (k ++ [95])) ->
  (forall s, filter valid_ident_char s <> [] -> P (filter valid_ident_char s)) ->
  forall s, P (ensure_valid_identifier s).
Proof.
  intros H0 Hk Hf s. unfold ensure_valid_identifier. destruct s as [|c r]; [exact H0|].
  destruct (iskeyword (c :: r)) eqn:K; [apply Hk, K|].
  match goal with |- context [match ?X with [] => _ | _ => _ end] => destruct X eqn:F end; [exact H0|].
  rewrite <- F. apply Hf. rewrite F. discriminate.
Qed.
