(* What the Google and the NumPy docstring styles share, stated once for both: where the prose ends (the head scan at a token),
   lines -> units (GoogleScan.section_units inverts the join of well-indented units) and the text the emitters write (a heading and
   one block per entry inside RestDocProofs.doc_frame). *)
From Coq Require Import Lia.
From CDD Require Import PyStr PyStrFacts DocSplit RestDocProofs RestDocIndentProofs GoogleLineProofs GoogleHead GoogleScan.
Open Scope N_scope.

(* GoogleHead.google_scan_head and NumpyScan.numpy_scan_head with their two tokens as parameters, and what google_ir_doc / numpy_ir_doc
   do with the first component.  Each model function equals its instance by conversion, checked at google_head_general and
   numpy_head_general. *)
Definition scan_head (tok alt text : str) : str * option str :=
  let loc := match index_of tok text with
             | Some i => Some (i, length tok)
             | None => match index_of alt text with Some i => Some (i, length alt) | None => None end
             end in
  match loc with
  | Some (i, l) => (white_spacer (firstn i text), Some (skipn (i + l + 1) text))
  | None => (text, None)
  end.
Definition ir_doc (d : str) : str := if isspace d then [] else lstrip d.

Lemma blank_lacks c s : is_space c = false -> blank s = true -> lacks c s = true.
Proof.
  intros Hc H. apply not_in_forallb. intro K. unfold blank in H. rewrite forallb_forall in H. rewrite (H _ K) in Hc. discriminate.
Qed.

(* at position |t1| a text that starts with the token shows c, and a ++ t1 ++ ... shows a character of a ++ t1 once a is not empty *)
Lemma index_of_first c t1 t2 r : lacks c t1 = true -> forall a, lacks c a = true ->
  index_of (t1 ++ c :: t2) (a ++ (t1 ++ c :: t2) ++ r) = Some (length a).
Proof.
  intros H1. induction a as [|x a IH]; intro Ha.
  - cbn [app length]. destruct ((t1 ++ c :: t2) ++ r) eqn:E; cbn [index_of]; rewrite <- E, startswith_app; reflexivity.
  - cbn [lacks forallb] in Ha. apply andb_prop in Ha as [Hx Ha']. cbn [app index_of length].
    destruct (startswith (t1 ++ c :: t2) (x :: a ++ (t1 ++ c :: t2) ++ r)) eqn:S; [exfalso | rewrite (IH Ha'); reflexivity].
    apply startswith_iff in S as [r' E].
    assert (K : nth_error ((x :: a) ++ t1) (length t1) = Some c).
    { rewrite <- (nth_error_app1 _ (c :: t2 ++ r)) by (rewrite app_length; cbn [length]; lia).
      rewrite <- !app_assoc in *. cbn [app] in *. rewrite E, nth_error_app2, Nat.sub_diag by lia. reflexivity. }
    apply nth_error_In in K. revert K. apply not_in_forallb. fold (lacks c ((x :: a) ++ t1)).
    rewrite lacks_app, H1. cbn [lacks forallb]. rewrite Hx, Ha'. reflexivity.
Qed.

(* the token is given split at a character c that the prose lacks: so its first occurrence in the text is the one behind the prose *)
Theorem scan_head_general c t1 t2 alt (pre hd sep rest : str) :
  lacks c t1 = true -> is_space c = false ->
  blank pre = true -> head_ok hd = true -> head_ok (rev hd) = true -> lacks c hd = true -> blank sep = true ->
  let r := scan_head (t1 ++ c :: t2) alt (pre ++ hd ++ sep ++ (t1 ++ c :: t2) ++ rest) in
  r = (hd, Some (skipn 1 rest)) /\ ir_doc (fst r) = hd.
Proof.
  intros T1 Hc BP H1 H2 HC B r.
  assert (E : r = (hd, Some (skipn 1 rest))).
  2: { split; [exact E|]. rewrite E. unfold ir_doc. cbn [fst]. rewrite (isspace_head_ok _ H1). apply lstrip_head_ok, H1. }
  unfold r.
  replace (pre ++ hd ++ sep ++ (t1 ++ c :: t2) ++ rest) with ((pre ++ hd ++ sep) ++ (t1 ++ c :: t2) ++ rest) by (rewrite <- !app_assoc; reflexivity).
  unfold scan_head.
  rewrite index_of_first by (rewrite ?lacks_app, ?HC, ?(blank_lacks c _ Hc BP), ?(blank_lacks c _ Hc B); reflexivity || exact T1).
  rewrite firstn_app_length. f_equal.
  - unfold white_spacer. replace (isspace (pre ++ hd ++ sep)) with false; [exact (strip_padded pre hd sep BP B H1 H2)|].
    symmetry. unfold isspace. destruct (pre ++ hd ++ sep) eqn:K; [reflexivity|]. rewrite <- K, !forallb_app.
    destruct hd as [|h hd']; [discriminate|]. cbn [forallb]. rewrite (head_ok_not_space h hd' H1), andb_false_r. reflexivity.
  - f_equal. rewrite (app_assoc _ (t1 ++ c :: t2) rest), <- app_length, skipn_app, skipn_all2 by lia. cbn [app]. f_equal. lia.
Qed.

(* a unit as the scanner forms it at first-line indentation fi *)
Definition unit_ok (fi : nat) (u : list str) : Prop :=
  match u with [] => False | l :: more => l <> [] /\ indent_of l = fi /\ Forall (fun m => (fi < indent_of m)%nat) more end.

Lemma append_last_snoc acc u l : append_last (acc ++ [u]) l = acc ++ [u ++ [l]].
Proof. unfold append_last. rewrite rev_app_distr. cbn [rev app]. rewrite rev_involutive. reflexivity. Qed.

Lemma form_units_concat fi : forall us acc, Forall (unit_ok fi) us -> form_units fi (concat us) acc = (acc ++ us, []).
Proof.
  (* lines deeper than fi are absorbed, one by one, into the last unit *)
  assert (M : forall more rest acc u, Forall (fun m => (fi < indent_of m)%nat) more ->
              form_units fi (more ++ rest) (acc ++ [u]) = form_units fi rest (acc ++ [u ++ more])).
  { induction more as [|m more IH]; intros rest acc u H; [rewrite app_nil_r; reflexivity|]. inversion H as [|? ? Hm Hr]; subst.
    cbn [app form_units]. replace (Nat.eqb (indent_of m) fi) with false by (symmetry; apply Nat.eqb_neq; lia).
    replace (Nat.ltb (indent_of m) fi) with false by (symmetry; apply Nat.ltb_ge; lia).
    rewrite append_last_snoc, (IH _ _ _ Hr), <- app_assoc. reflexivity. }
  induction us as [|u us IH]; intros acc H; cbn [concat]; [rewrite app_nil_r; reflexivity|].
  inversion H as [|? ? Hu Hr]; subst. destruct u as [|l more]; [contradiction|]. destruct Hu as [_ [Hl Hm]].
  cbn [app form_units]. rewrite Hl, Nat.eqb_refl, (M _ _ _ _ Hm), (IH _ Hr), <- app_assoc. reflexivity.
Qed.

(* a line deeper than some indentation is not empty *)
Lemma unit_lines_nonempty fi us : Forall (unit_ok fi) us -> Forall (fun l : str => l <> []) (concat us).
Proof.
  intro H. apply Forall_concat. refine (Forall_impl _ _ H). intros [|l more]; [contradiction|]. intros [Hl [_ Hm]].
  constructor; [exact Hl|]. refine (Forall_impl _ _ Hm). intros m Lt ->. cbn in Lt. lia.
Qed.

Lemma splitlines_join (L : list str) (trail : bool) : L <> [] -> Forall (fun l => one_line l = true) L -> Forall (fun l : str => l <> []) L ->
  splitlines (join [NL] L ++ if trail then [NL] else []) = L.
Proof.
  intros Hne H1 Hl. assert (S : split_char NL (join [NL] L) = L).
  { apply split_join; [exact Hne|]. refine (Forall_impl _ _ H1). apply not_in_forallb. }
  unfold splitlines. destruct trail.
  - unfold split_char in *. rewrite split_char_aux_snoc, S, last_opt_snoc. apply removelast_last.
  - rewrite app_nil_r, S. destruct (last_opt L) as [[|]|] eqn:K; try reflexivity.
    apply last_opt_split in K as [r ->]. apply Forall_app in Hl as [_ Hl]. inversion Hl as [|? ? Hx _]. destruct (Hx eq_refl).
Qed.

Theorem section_units_join fi (us : list (list str)) (trail : bool) :
  us <> [] -> Forall (fun u => unit_ok fi u /\ Forall (fun l => one_line l = true) u) us ->
  section_units (join [NL] (concat us) ++ if trail then [NL] else []) = (us, []).
Proof.
  intros Hne [Hu H1]%Forall_and_inv. pose proof (unit_lines_nonempty fi us Hu) as Hl. unfold section_units.
  destruct us as [|[|l more] us']; [contradiction | inversion Hu; contradiction|].
  rewrite splitlines_join by (discriminate || (apply Forall_concat; exact H1) || exact Hl).
  change (match concat ((l :: more) :: us') with l0 :: _ => indent_of l0 | [] => O end) with (indent_of l).
  replace (indent_of l) with fi by (inversion Hu as [|? ? Hu0 _]; symmetry; apply Hu0).
  apply (form_units_concat fi _ [] Hu).
Qed.

(* the argument of doc_frame is written as numpy_args / google_args end (Model/NumpyEmit.v): the emitters' lemmas are [exact] this *)
Lemma frame_section doc tok (blocks : list str) b :
  head_ok doc = true -> tail_ok doc = true -> head_ok tok = true -> tail_ok b = true ->
  let params := join [NL] (tok :: blocks ++ [b]) in
  doc_frame (fun x => x) doc (params ++ (if Nat.ltb 0 (num_of_nls params true) then [NL] else []))
  = doc ++ [NL; NL] ++ tok ++ [NL] ++ join [NL] (blocks ++ [b]) ++ [NL].
Proof.
  intros D1 D2 T1 Hb params.
  assert (E : params = tok ++ [NL] ++ join [NL] (blocks ++ [b])) by (apply join_cons_ne; destruct blocks; discriminate).
  assert (T : tail_ok params = true) by (apply (tail_ok_join_snoc [NL] (tok :: blocks)), Hb).
  assert (P1 : head_ok params = true) by (rewrite E; apply head_ok_app, T1).
  assert (E0 : num_of_nls params true = O) by exact (nls_end_tail_ok params T).
  rewrite E0. etransitivity; [exact (doc_frame_section (fun x => x) doc false false params D1 D2 P1 T)|].
  rewrite E, <- !app_assoc. reflexivity.
Qed.
