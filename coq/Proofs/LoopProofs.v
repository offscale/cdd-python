From Coq Require Import Lia.
From CDD Require Import PyStr PyStrFacts DocSplit Loops.

Section Loop.
  Variable S : Type.
  Variable guard : S -> bool.
  Variable step : S -> S.
  Variable mu : S -> nat.
  Variable inv : S -> Prop.
  Hypothesis dec : forall s, inv s -> guard s = true -> inv (step s) /\ (mu (step s) < mu s)%nat.

  Lemma run_terminates_aux : forall fuel s n, inv s -> (mu s < fuel)%nat ->
    exists s' k, run S guard step fuel s n = Some (s', (n + k)%nat) /\ guard s' = false /\ (k <= mu s)%nat.
  Proof.
    induction fuel as [|f IH]; intros s n Hi H; [lia|]. cbn [run].
    destruct (guard s) eqn:G.
    - destruct (dec s Hi G) as [Hi' Hd].
      destruct (IH (step s) (Datatypes.S n) Hi') as [s' [k [Hr [Hg Hk]]]]; [lia|].
      exists s', (Datatypes.S k). repeat split; [rewrite Hr; f_equal; f_equal; lia | exact Hg | lia].
    - exists s, O. repeat split; [f_equal; f_equal; lia | exact G | lia].
  Qed.

  Theorem run_terminates s : inv s ->
    exists s' k, run S guard step (Datatypes.S (mu s)) s O = Some (s', k) /\ guard s' = false /\ (k <= mu s)%nat.
  Proof. intro Hi. exact (run_terminates_aux (Datatypes.S (mu s)) s O Hi (Nat.lt_succ_diag_r _)). Qed.
End Loop.
Corollary run_terminates_plain S guard step mu : (forall s, guard s = true -> (mu (step s) < mu s)%nat) ->
  forall s, exists s' k, run S guard step (Datatypes.S (mu s)) s O = Some (s', k) /\ guard s' = false /\ (k <= mu s)%nat.
Proof. intros dec s. exact (run_terminates S guard step mu (fun _ => True) (fun s _ G => conj I (dec s G)) s I). Qed.

Lemma find_at_range p s i : find_at p s i = -1 \/ (Z.of_nat i <= find_at p s i <= slen s).
Proof.
  unfold find_at, find. destruct (Nat.ltb_spec (length s) i) as [|L]; [left; reflexivity|].
  destruct (find_from_range p (skipn i s) 0) as [H|H]; [rewrite H; left; reflexivity|].
  unfold slen in *. rewrite skipn_length in H. destruct (find_from p (skipn i s) 0); lia.
Qed.

Lemma l1_dec cds s : l1_guard cds s = true -> (l1_mu cds (l1_step cds s) < l1_mu cds s)%nat.
Proof.
  destruct s as [prev next]. unfold l1_guard, l1_step, l1_mu. cbn [fst snd].
  intro H.
  destruct (find_at_range [NL] cds (Z.to_nat (next + 1))) as [F|F].
  - rewrite F. change (-1 <? 0) with true. cbv iota. destruct (next <? 0) eqn:E; lia.
  - destruct (find_at [NL] cds (Z.to_nat (next + 1)) <? 0) eqn:E1; destruct (next <? 0) eqn:E2; lia.
Qed.

Lemma l2_dec doc idx : l2_guard doc idx = true -> (l2_mu doc (l2_step idx) < l2_mu doc idx)%nat.
Proof.
  unfold l2_guard, l2_step, l2_mu, in_range, char_at. intro H.
  apply andb_true_iff in H as [H _]. apply andb_true_iff in H as [H0 Hr].
  assert (R : - slen doc <= idx < slen doc) by (apply index_range; destruct (index doc idx); discriminate).
  destruct (0 <=? idx) eqn:E1; destruct (0 <=? idx - 1) eqn:E2; lia.
Qed.

Lemma l3_dec doc i : l3_guard doc i = true -> (l3_mu doc (l3_step i) < l3_mu doc i)%nat.
Proof. unfold l3_guard, l3_step, l3_mu. intro H. lia. Qed.

Lemma l4_dec doc s : l4_guard doc s = true -> (l4_mu doc (l4_step doc s) < l4_mu doc s)%nat.
Proof. destruct s as [a b]. unfold l4_guard, l4_step, l4_mu. cbn [fst snd]. intro H. lia. Qed.

(* a blank skips to the end of its run of blanks, which has at least one member *)
Lemma l5_advances sen s : 0 <= fst s -> fst s < fst (l5_step sen s).
Proof.
  destruct s as [i [q1 q2]]. unfold l5_step, char_at. cbn [fst snd]. intro Hi.
  destruct (index sen i) as [c|] eqn:Ec; [|cbn [fst]; lia].
  destruct (is_space c) eqn:Es.
  - rewrite index_nonneg in Ec by exact Hi. apply nth_error_skipn in Ec as [r Hr].
    rewrite slice_from_nonneg, Hr by exact Hi. cbn [count_leading_space fst]. rewrite Es. lia.
  - destruct (N.eqb c 39 || N.eqb c 34); [|cbn [fst]; lia].
    cbn [fst]. match goal with |- context [if ?b then i + 1 else i] => destruct b end; lia.
Qed.

Lemma l6_dec {A} pop (s : list A) : l6_guard s = true -> (length (l6_step pop s) < length s)%nat.
Proof.
  unfold l6_guard, l6_step. destruct s as [|x r]; [discriminate|]. intros _. cbn [tl length].
  destruct (pop r); [destruct r; cbn; lia | lia].
Qed.
