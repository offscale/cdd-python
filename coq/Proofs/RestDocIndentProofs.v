(* Indentation (indent_doc, indent_doc_nt of Model/RestDoc.v) turns the text the ReST emitter writes into the canonical text of
   RestDocProofs with "\n" + tabs for separators (grender): the docstring as it stands inside a function or a class. *)
From Coq Require Import Lia.
From CDD Require Import PyStr PyStrFacts RestDoc RestDocProofs.

Section Gen.
  Variables S1 S2 SF HP HS : str.     (* inside a block, between blocks, after the last line, before / after the header *)

  Definition gparam_lines (n : str) (e : pentry) (sep : str) : list (str * str) :=
    match pe_doc e, pe_typ e with
    | Some d, Some t => [(T_param, named_body n (d ++ S1)); (T_type, named_body n (fenced t ++ sep))]
    | Some d, None => [(T_param, named_body n (d ++ sep))]
    | None, Some t => [(T_type, named_body n (fenced t ++ sep))]
    | None, None => []
    end.
  Definition gret_lines (e : pentry) (sep : str) : list (str * str) :=
    match pe_doc e, pe_typ e with
    | Some d, Some t => [(T_return, COLON :: SP :: d ++ S1); (T_rtype, COLON :: SP :: fenced t ++ sep)]
    | Some d, None => [(T_return, COLON :: SP :: d ++ sep)]
    | None, Some t => [(T_rtype, COLON :: SP :: fenced t ++ sep)]
    | None, None => []
    end.
  Fixpoint glines_params (ps : list (str * pentry)) (final_sep : str) : list (str * str) :=
    match ps with
    | [] => []
    | [(n, e)] => gparam_lines n e final_sep
    | (n, e) :: r => gparam_lines n e S2 ++ glines_params r final_sep
    end.
  Definition gall_lines (ps : list (str * pentry)) (ret : option pentry) : list (str * str) :=
    match ret with
    | None => glines_params ps SF
    | Some r => glines_params ps S2 ++ gret_lines r SF
    end.
  Definition grender (doc : str) (ps : list (str * pentry)) (ret : option pentry) : str :=
    (HP ++ doc ++ HS) ++ concat (map cat (gall_lines ps ret)).

End Gen.

Lemma grender_canon S1 S2 SF HP HS doc ps ret : grender S1 S2 SF HP HS doc ps ret = canon_text T_param S1 S2 SF HP HS doc ps ret.
Proof. reflexivity. Qed.

Definition one_line (s : str) : bool := forallb (fun c => negb (c =? NL)) s.

Lemma one_line_app a b : one_line (a ++ b) = one_line a && one_line b.
Proof. apply forallb_app. Qed.
Lemma one_line_not_in d : one_line d = true -> ~ In NL d.
Proof. apply not_in_forallb. Qed.

Definition entry_1l (e : pentry) : bool :=
  (match pe_doc e with Some d => one_line d | None => true end) && (match pe_typ e with Some t => one_line t | None => true end).
Definition param_1l (p : str * pentry) : bool := one_line (fst p) && entry_1l (snd p).
Definition ret_1l (ret : option pentry) : bool := match ret with Some r => entry_1l r | None => true end.

Lemma one_line_lstrip d : one_line d = true -> one_line (lstrip d) = true.
Proof.
  induction d as [|c d IH]; [reflexivity|]. cbn [lstrip]. destruct (is_space c); [|intro H; exact H].
  intro H. apply andb_true_iff in H as [_ H]. exact (IH H).
Qed.

Lemma lines_of_1l key key_typ e : one_line key = true -> one_line key_typ = true -> entry_1l e = true ->
  Forall (fun l => one_line l = true) (lines_of key key_typ true e).
Proof.
  intros Hk Ht H1. apply andb_true_iff in H1 as [Hd1 Ht1]. apply Forall_app. split.
  - destruct (pe_doc e) as [[|c d]|]; repeat constructor. rewrite !one_line_app, Hk, (one_line_lstrip _ Hd1). reflexivity.
  - destruct (pe_typ e) as [[|c t]|]; repeat constructor. rewrite !one_line_app, Ht, Ht1. reflexivity.
Qed.

Lemma blocks_of_1l ps ret : forallb param_1l ps = true -> ret_1l ret = true ->
  Forall (Forall (fun l => one_line l = true)) (blocks_of (s2l "param") ps ret).
Proof.
  intros Hp Hr. apply Forall_app. split.
  - apply Forall_map, Forall_forall. intros p Hin. rewrite forallb_forall in Hp. specialize (Hp p Hin). apply andb_true_iff in Hp as [Hn H1].
    (* the keys are a literal in front of the name: Hn again, by computation *)
    apply lines_of_1l; assumption.
  - destruct ret as [r|]; [|constructor]. constructor; [apply lines_of_1l; auto | constructor].
Qed.

Definition tabs_of (k : nat) : str := concat (repeat TAB k).

(* indent_doc and indent_doc_nt of Model/RestDoc.v differ only in what they put in front of a line: both are [indent_doc_with pf] by
   conversion, for the function pf they map over the lines (indent_doc_as_with, indent_doc_nt_as_with).  In the lemmas below
   E = pf tabs [] is what the variant makes of the empty line between two entries: the tabs, or nothing *)
Definition indent_doc_with (pf : str -> str -> str) (indent_level : nat) (cand : str) : str :=
  match indent_level with
  | O => cand
  | _ =>
    let tabs := concat (repeat TAB indent_level) in
    let '(line, next_nl) := skip_blank_lines (S (length cand)) cand 0 (find [NL] cand) in
    let n := slen cand in
    let start := if (n =? next_nl)%Z || (((next_nl + 1) <? n)%Z && negb (match nth_char cand (next_nl + 1) with Some c => c =? NL | None => false end))
                 then next_nl else (next_nl + 1)%Z in
    let lines := (match line with [] => [] | _ => [line] end) ++ splitlines_nl (slice_from cand start) in
    let joined := join [NL] (map (pf tabs) lines) in
    if Nat.ltb 1 (length lines)
    then (if startswith tabs joined then [NL] else []) ++ joined ++ (if ends_nl joined then [] else [NL] ++ tabs)
    else joined
  end.
Definition pref (tabs : str) (l : str) : str := match l with [] => [] | _ => tabs ++ l end.

Lemma indent_doc_as_with k : indent_doc k = indent_doc_with (fun tabs l => tabs ++ l) k.
Proof. reflexivity. Qed.
Lemma indent_doc_nt_as_with k : indent_doc_nt k = indent_doc_with pref k.
Proof. reflexivity. Qed.
Lemma pref_ne tabs l : l <> [] -> pref tabs l = tabs ++ l.
Proof. destruct l; [contradiction | reflexivity]. Qed.

Lemma skip_blank_first fuel (s l rest : str) : s = l ++ NL :: rest -> head_ok l = true -> ~ In NL l ->
  skip_blank_lines (S fuel) s 0 (find [NL] s) = (l, slen l).
Proof.
  intros -> Hh Hnl. unfold find. rewrite find_from_skip by exact Hnl. cbn [skip_blank_lines Z.add].
  pose proof (slen_nonneg l). destruct (Z.ltb_spec (slen l) 0); [lia|].
  rewrite (slice_mid (l ++ NL :: rest) [] l (NL :: rest) 0 (slen l) eq_refl eq_refl eq_refl), (isspace_head_ok l Hh). reflexivity.
Qed.
Lemma nth_char_app (s pre rest : str) c i : s = pre ++ c :: rest -> i = slen pre -> nth_char s i = Some c.
Proof. intros -> ->. unfold nth_char, slen. rewrite Nat2Z.id, nth_error_app2, Nat.sub_diag by lia. reflexivity. Qed.
Lemma splitlines_snoc_nl y : splitlines_nl (y ++ [NL]) = split_char NL y.
Proof.
  unfold splitlines_nl. destruct (y ++ [NL]) as [|c r] eqn:E; [destruct y; discriminate|]. rewrite <- E.
  unfold ends_nl. rewrite last_opt_snoc, N.eqb_refl. unfold split_char. rewrite split_char_aux_snoc. apply removelast_last.
Qed.

(* the text every emitter hands over: a visible first line l, an empty line, the section x, a final line break.  The search for the
   first non-blank line stops at l; the character behind its line break is a line break again, so the rest starts there; the final
   line break makes splitlines drop the last empty piece *)
Theorem indent_doc_with_spec pf k (l x : str) : head_ok l = true -> one_line l = true ->
  let tabs := tabs_of (S k) in
  let joined := join [NL] (map (pf tabs) (l :: [] :: split_char NL x)) in
  indent_doc_with pf (S k) (l ++ [NL; NL] ++ x ++ [NL])
  = (if startswith tabs joined then [NL] else []) ++ joined ++ (if ends_nl joined then [] else NL :: tabs).
Proof.
  intros Hh Ho tabs joined. pose proof (one_line_not_in l Ho) as Hnl. set (T := l ++ [NL; NL] ++ x ++ [NL]).
  assert (ET : T = (l ++ [NL]) ++ (NL :: x) ++ [NL]) by (unfold T; rewrite <- app_assoc; reflexivity).
  assert (Ei : (slen l + 1)%Z = slen (l ++ [NL])) by (rewrite slen_app; reflexivity).
  assert (En : (slen T =? slen l)%Z = false).
  { apply Z.eqb_neq. rewrite ET, slen_app, <- Ei. pose proof (slen_nonneg ((NL :: x) ++ [NL])). lia. }
  unfold indent_doc_with.
  rewrite (skip_blank_first _ T l _ eq_refl Hh Hnl), En, (nth_char_app T _ _ _ _ ET Ei), N.eqb_refl, andb_false_r. cbn [orb].
  rewrite (slice_from_app T _ _ _ ET Ei), splitlines_snoc_nl.
  destruct l as [|c l']; [discriminate Hh|]. reflexivity.
Qed.

Fixpoint block_lines (BL : list (list str)) : list str :=
  match BL with [] => [] | [b] => b | b :: r => b ++ [] :: block_lines r end.

Lemma block_lines_cons b BL : BL <> [] -> block_lines (b :: BL) = b ++ [] :: block_lines BL.
Proof. destruct BL; [contradiction | reflexivity]. Qed.
Lemma block_lines_ne P BL : BL <> [] -> Forall (block_ok P) BL -> block_lines BL <> [].
Proof. intros Hne H. inversion H as [|b r [Bne _] _]; subst; [contradiction|]. destruct b; [contradiction|]. destruct r; discriminate. Qed.
Lemma block_lines_all (P : str -> Prop) BL : P [] -> Forall (Forall P) BL -> Forall P (block_lines BL).
Proof.
  intros P0 H. induction H as [|b r Hb Hr IH]; [constructor|]. destruct r; [exact Hb|].
  rewrite block_lines_cons by discriminate. apply Forall_app. split; [exact Hb | constructor; [exact P0 | exact IH]].
Qed.

Lemma join_block_lines (P : str -> Prop) (pf : str -> str) tabs : (forall l, P l -> pf l = tabs ++ l) ->
  forall BL, BL <> [] -> Forall (block_ok P) BL ->
  join [NL] (map pf (block_lines BL)) = tabs ++ blocks_text (NL :: tabs) (NL :: pf [] ++ NL :: tabs) BL.
Proof.
  intro Hpf.
  assert (B : forall b, block_ok P b -> join [NL] (map pf b) = tabs ++ join (NL :: tabs) b).
  { intros b [Bne Hb]. rewrite (map_ext_Forall _ (app tabs)); [apply (join_map_app [NL] tabs b Bne) | revert Hb; apply Forall_impl, Hpf]. }
  induction BL as [|b r IH]; intros Hne H; [contradiction|]. inversion H as [|? ? Hb Hr]. destruct r as [|b' r]; [apply B, Hb|].
  pose proof (block_lines_ne _ (b' :: r) ltac:(discriminate) Hr) as Lne.
  rewrite block_lines_cons, map_app, blocks_text_cons by discriminate. cbn [map].
  rewrite join_app_ne, join_cons_ne by (try discriminate; apply map_ne; first [apply Hb | exact Lne]).
  rewrite (B b Hb), IH by (try discriminate; exact Hr). repeat (cbn [app]; rewrite <- ?app_assoc). reflexivity.
Qed.

Corollary blocks_text_lines P BL : BL <> [] -> Forall (block_ok P) BL -> join [NL] (block_lines BL) = blocks_text [NL] [NL; NL] BL.
Proof. intros Hne H. rewrite <- (map_id (block_lines BL)). exact (join_block_lines P (fun l => l) [] (fun l _ => eq_refl) BL Hne H). Qed.

Definition S1_of (k : nat) : str := NL :: tabs_of k.
Definition S2_of (k : nat) : str := NL :: tabs_of k ++ NL :: tabs_of k.

Lemma blank_tabs k : blank (tabs_of k) = true.
Proof. induction k as [|k IH]; [reflexivity | exact (blank_app TAB _ eq_refl IH)]. Qed.
Lemma blank_S1 k : blank (S1_of k) = true.
Proof. exact (blank_tabs k). Qed.
Lemma blank_S2 k : blank (S2_of k) = true.
Proof. exact (blank_app (S1_of k) (S1_of k) (blank_S1 k) (blank_S1 k)). Qed.

Theorem indent_with_blocks pf k E doc BL :
  (forall l, l <> [] -> pf (tabs_of (S k)) l = tabs_of (S k) ++ l) -> pf (tabs_of (S k)) [] = E ->
  head_ok doc = true -> one_line doc = true -> BL <> [] -> Forall (block_ok ends_ok) BL -> Forall (Forall (fun l => one_line l = true)) BL ->
  indent_doc_with pf (S k) (doc ++ [NL; NL] ++ blocks_text [NL] [NL; NL] BL ++ [NL])
  = S1_of (S k) ++ doc ++ (NL :: E ++ S1_of (S k)) ++ blocks_text (S1_of (S k)) (NL :: E ++ S1_of (S k)) BL ++ S1_of (S k).
Proof.
  intros Hpf HE D1 H1 Hne He Hl. pose proof (block_lines_ne _ BL Hne He) as Lne.
  assert (Hnl : Forall (fun l => ~ In NL l) (block_lines BL)).
  { apply block_lines_all; [intros []|]. revert Hl. apply Forall_impl. intro b. apply Forall_impl. exact one_line_not_in. }
  rewrite (indent_doc_with_spec pf k doc _ D1 H1). rewrite <- (blocks_text_lines _ BL Hne He), (split_join NL _ Lne Hnl).
  cbn [map]. rewrite !join_cons_ne by (try discriminate; apply map_ne, Lne).
  rewrite (Hpf doc (head_ok_ne doc D1)), (join_block_lines ends_ok _ _ (fun l H => Hpf l (head_ok_ne l (proj1 H))) BL Hne He), HE.
  rewrite <- app_assoc, startswith_app, tail_ok_not_ends_nl by (repeat apply tail_ok_app_r; apply (blocks_text_ends _ _ BL Hne He)).
  unfold S1_of. repeat (cbn [app]; rewrite <- ?app_assoc). reflexivity.
Qed.

Lemma indent_doc_blocks k doc BL : head_ok doc = true -> one_line doc = true -> BL <> [] -> Forall (block_ok ends_ok) BL -> Forall (Forall (fun l => one_line l = true)) BL ->
  indent_doc (S k) (doc ++ [NL; NL] ++ blocks_text [NL] [NL; NL] BL ++ [NL])
  = S1_of (S k) ++ doc ++ S2_of (S k) ++ blocks_text (S1_of (S k)) (S2_of (S k)) BL ++ S1_of (S k).
Proof. rewrite indent_doc_as_with. exact (indent_with_blocks _ k _ doc BL (fun l _ => eq_refl) (app_nil_r _)). Qed.

Theorem frame_indented pf k E doc ps ret :
  (forall l, l <> [] -> pf (tabs_of (S k)) l = tabs_of (S k) ++ l) -> pf (tabs_of (S k)) [] = E ->
  clean doc = true -> one_line doc = true -> forallb param_ok ps = true -> forallb param_1l ps = true ->
  ret_ok ret = true -> ret_1l ret = true -> (ps <> [] \/ ret <> None) ->
  doc_frame (indent_doc_with pf (S k)) doc (args_returns true ps ret)
  = grender (S1_of (S k)) (NL :: E ++ S1_of (S k)) (S1_of (S k)) (S1_of (S k)) (NL :: E ++ S1_of (S k)) doc ps ret.
Proof.
  intros Hpf HE Hd H1 Hp Hp1 Hr Hr1 Hne. destruct (proj1 (clean_iff doc) Hd) as [D1 _].
  rewrite (frame_is_render _ doc ps ret Hd Hp Hr Hne), (grender_canon (S1_of (S k))), render_canon. unfold canon_text. change T_param with (COLON :: s2l "param").
  rewrite !canon_lines_text, <- !app_assoc by assumption.
  apply (indent_with_blocks pf k E doc _ Hpf HE D1 H1 (blocks_of_nonempty _ ps ret Hne) (blocks_of_ends _ ps ret Hp Hr) (blocks_of_1l ps ret Hp1 Hr1)).
Qed.

Theorem emit_indented_is_grender k doc ps ret :
  clean doc = true -> one_line doc = true -> forallb param_ok ps = true -> forallb param_1l ps = true ->
  ret_ok ret = true -> ret_1l ret = true -> (ps <> [] \/ ret <> None) ->
  emit_rest_indented (S k) true doc ps ret
  = grender (S1_of (S k)) (S2_of (S k)) (S1_of (S k)) (S1_of (S k)) (S2_of (S k)) doc ps ret.
Proof.
  change (emit_rest_indented (S k) true doc ps ret) with (doc_frame (indent_doc (S k)) doc (args_returns true ps ret)).
  rewrite indent_doc_as_with. exact (frame_indented _ k _ doc ps ret (fun l _ => eq_refl) (app_nil_r _)).
Qed.
