From CDD Require Import PyStr Infer.

Theorem assignment_is_transparent v : infer (IAssign v) = infer v.
Proof. reflexivity. Qed.

Example infer_examples :
  infer (IClass [Some (s2l "TimestampMixin"); Some (s2l "Base")]) = Parser (s2l "sqlalchemy")
  /\ infer (IClass [None; Some (s2l "object")]) = Parser (s2l "class_")
  /\ infer (IFunction [s2l "argument_parser"]) = Parser (s2l "argparse_ast")
  /\ infer (IAssign (ICall 3 (Some (s2l "metadata")))) = Parser (s2l "sqlalchemy_table")
  /\ infer (IAssign (ICall 0 None)) = NoAnswer.
Proof. repeat split; vm_compute; reflexivity. Qed.
