From CDD Require Import PyStr PyStrFacts RestDocProofs GoogleLine.
Open Scope N_scope.


Definition lacks (c : char) (s : str) : bool := forallb (fun x => negb (x =? c)) s.

(* the text is given up to an equation, for the caller to settle by associativity *)
Lemma break_at_app c a b s : s = a ++ c :: b -> lacks c a = true -> break_at c s = Some (a, b).
Proof.
  intros -> H. induction a as [|x a IH]; cbn [app break_at lacks forallb] in *.
  - rewrite N.eqb_refl. reflexivity.
  - apply andb_prop in H. destruct H as [H1 H2]. apply negb_true_iff in H1. rewrite H1, (IH H2). reflexivity.
Qed.

Lemma break_at_none c s : lacks c s = true -> break_at c s = None.
Proof.
  induction s as [|x s IH]; cbn [break_at lacks forallb]; intro H; [reflexivity|].
  apply andb_prop in H. destruct H as [H1 H2]. apply negb_true_iff in H1. rewrite H1, (IH H2). reflexivity.
Qed.

Lemma lacks_app c a b : lacks c (a ++ b) = lacks c a && lacks c b.
Proof. apply forallb_app. Qed.

(* name_ok, typ_ok, entry_ok are also the names of the ReST predicates of RestDocProofs: a file that uses both qualifies them *)
Definition name_ok (n : str) : bool := head_ok n && head_ok (rev n) && lacks GCOLON n && lacks LP n.
Definition typ_ok (t : str) : bool := head_ok t && lacks GCOLON t && negb (contains OR_ t).
Definition doc_ok (d : str) : bool :=
  head_ok d && head_ok (rev d) && negb (Nat.ltb 3 (length d) && startswith [LBRACE] d && endswith [RBRACE] d).

Lemma name_ok_spec n : name_ok n = true <-> head_ok n = true /\ head_ok (rev n) = true /\ lacks GCOLON n = true /\ lacks LP n = true.
Proof.
  unfold name_ok. split.
  - intros [[[H1 H2]%andb_prop H3]%andb_prop H4]%andb_prop. auto.
  - intros (-> & -> & -> & ->). reflexivity.
Qed.
Lemma typ_ok_spec t : typ_ok t = true <-> head_ok t = true /\ lacks GCOLON t = true /\ contains OR_ t = false.
Proof.
  unfold typ_ok. split.
  - intros [[H1 H2]%andb_prop H3%negb_true_iff]%andb_prop. auto.
  - intros (-> & -> & ->). reflexivity.
Qed.
Lemma doc_ok_spec d : doc_ok d = true <->
  head_ok d = true /\ head_ok (rev d) = true /\ Nat.ltb 3 (length d) && startswith [LBRACE] d && endswith [RBRACE] d = false.
Proof.
  unfold doc_ok. split.
  - intros [[H1 H2]%andb_prop H3%negb_true_iff]%andb_prop. auto.
  - intros (-> & -> & ->). reflexivity.
Qed.

Definition doc_text (d : option str) : str := match d with Some x => x | None => [] end.

Lemma parse_google_unit_ok l n t d : parse_google_unit l = UOk n t d ->
  exists pre post name0, break_at GCOLON l = Some (pre, post) /\ n = strip name0 /\ d = strip post.
Proof.
  unfold parse_google_unit. destruct (break_at GCOLON l) as [[pre post]|]; [|discriminate].
  intro H. exists pre, post. destruct (break_at LP (lstrip pre)) as [[a b]|]; [exists a | exists (lstrip pre)].
  - destruct (rstrip (LP :: b)); [injection H as <- _ <-; auto|].
    destruct (startswith [LP] _ && endswith [RP] _); [|discriminate].
    destruct (Nat.ltb 3 _ && _ && _); [discriminate|]. injection H as <- _ <-. auto.
  - cbn [rstrip rev lstrip] in H. injection H as <- _ <-. auto.
Qed.

(* a written line, cut at the colon the reader breaks it at *)
Lemma emit_google_param_eq n t d :
  emit_google_param n t d = ([SP; SP] ++ n ++ match t with Some t => [SP; LP] ++ t ++ [RP] | None => [] end) ++ GCOLON :: SP :: doc_text d.
Proof. unfold emit_google_param, doc_text. destruct t; cbn [app]; rewrite <- !app_assoc; cbn [app]; rewrite <- ?app_assoc; reflexivity. Qed.

Lemma doc_side d : match d with Some x => doc_ok x = true | None => True end ->
  strip (SP :: doc_text d) = doc_text d /\ lstrip (SP :: doc_text d) = doc_text d
  /\ Nat.ltb 3 (length (doc_text d)) && startswith [LBRACE] (doc_text d) && endswith [RBRACE] (doc_text d) = false.
Proof.
  destruct d as [x|]; cbn [doc_text]; [|repeat split]. intros (D1 & D2 & D3)%doc_ok_spec.
  repeat split; [exact (strip_lpadded [SP] x eq_refl D1 D2) | exact (lstrip_head_ok x D1) | exact D3].
Qed.

Theorem google_unit_roundtrip (n : str) (t d : option str) :
  name_ok n = true -> match t with Some x => typ_ok x = true | None => True end ->
  match d with Some x => doc_ok x = true | None => True end ->
  parse_google_unit (emit_google_param n t d) = UOk n t (doc_text d).
Proof.
  intros (N1 & N2 & NC & NP)%name_ok_spec Ht Hd. destruct (doc_side d Hd) as [DS [DL DB]].
  rewrite emit_google_param_eq. unfold parse_google_unit. destruct t as [t|].
  - apply typ_ok_spec in Ht as (T1 & TC & TO).
    rewrite (break_at_app GCOLON _ _ _ eq_refl) by (rewrite !lacks_app, NC, TC; reflexivity).
    rewrite (lstrip_blank_app [SP; SP]), lstrip_head_ok by (reflexivity || apply head_ok_app, N1).
    rewrite (break_at_app LP (n ++ [SP]) (t ++ [RP])) by (rewrite ?lacks_app, ?NP, <- ?app_assoc; reflexivity).
    rewrite (strip_rpadded n [SP] eq_refl N1 N2).
    (* the type side, "(" ++ t ++ ")": nothing to strip on the right, wrapped in parentheses *)
    change (LP :: t ++ [RP]) with ((LP :: t) ++ [RP]). rewrite rstrip_rdropwhile, rdropwhile_snoc. change (is_space RP) with false. cbv iota.
    rewrite endswith_snoc. cbn [app startswith andb]. rewrite !N.eqb_refl.
    cbn [app tl andb]. rewrite removelast_last, TO, DL, DS. cbn [startswith] in DB. rewrite DB. reflexivity.
  - rewrite (break_at_app GCOLON _ _ _ eq_refl), app_nil_r by (rewrite !lacks_app, NC; reflexivity).
    rewrite (lstrip_blank_app [SP; SP]), (lstrip_head_ok n N1), (break_at_none LP n NP) by reflexivity.
    rewrite (strip_lpadded [] n eq_refl N1 N2 : strip n = n), DS. reflexivity.
Qed.

Theorem google_line_not_afterward (n : str) (t d : option str) :
  match d with Some x => x <> [] /\ match last_opt x with Some c => negb (c =? GCOLON) | None => true end = true | None => True end ->
  is_afterward (emit_google_param n t d) = false.
Proof.
  intro H. unfold is_afterward. rewrite emit_google_param_eq. destruct d as [x|]; cbn [doc_text].
  - destruct H as [Hx Hl]. destruct (exists_last Hx) as [r [c ->]]. rewrite last_opt_snoc in Hl. apply negb_true_iff in Hl.
    change (GCOLON :: SP :: r ++ [c]) with ((GCOLON :: SP :: r) ++ [c]). rewrite app_assoc, endswith_snoc, N.eqb_sym, Hl. reflexivity.
  - change [GCOLON; SP] with ([GCOLON] ++ [SP]). rewrite app_assoc, endswith_snoc. reflexivity.
Qed.

Definition entry := (str * option str * option str)%type.
Definition entry_ok (e : entry) : bool :=
  let '(n, t, d) := e in
  name_ok n && match t with Some x => typ_ok x | None => true end
  && match d with Some x => doc_ok x && match last_opt x with Some c => negb (c =? GCOLON) | None => true end | None => true end.
Definition emit_entry (e : entry) : str := let '(n, t, d) := e in emit_google_param n t d.
Definition read_entry (e : entry) : (str * option str * str) := let '(n, t, d) := e in (n, t, doc_text d).

Lemma entry_ok_spec n t d : entry_ok (n, t, d) = true <->
  name_ok n = true /\ match t with Some x => typ_ok x = true | None => True end
  /\ match d with Some x => doc_ok x = true /\ match last_opt x with Some c => negb (c =? GCOLON) | None => true end = true | None => True end.
Proof.
  unfold entry_ok. split.
  - intros [[Hn Ht]%andb_prop Hd]%andb_prop. destruct t, d; try apply andb_prop in Hd; auto.
  - intros (-> & Ht & Hd). destruct t; rewrite ?Ht; destruct d; [destruct Hd as [-> ->]| |destruct Hd as [-> ->]|]; reflexivity.
Qed.

Theorem google_params_roundtrip es : forallb entry_ok es = true -> google_params (map emit_entry es) = PList (map read_entry es).
Proof.
  unfold google_params. induction es as [|[[n t] d] es IH]; cbn [map forallb take_until]; intro H; [reflexivity|].
  apply andb_prop in H as [(Hn & Ht & Hd)%entry_ok_spec Hr].
  assert (Hd1 : match d with Some x => doc_ok x = true | None => True end) by (destruct d; [apply Hd | exact I]).
  cbn [emit_entry]. rewrite (google_line_not_afterward n t d).
  - cbn [map collect_units]. rewrite (google_unit_roundtrip n t d Hn Ht Hd1), (IH Hr). reflexivity.
  - destruct d as [x|]; [|exact I]. destruct Hd as [(D1 & _)%doc_ok_spec Hl]. split; [apply head_ok_ne, D1 | exact Hl].
Qed.

Example google_examples :
  google_params [s2l "  a (int): the value"; s2l "  b: other"; s2l "  c (List[str]): "]
  = PList [(s2l "a", Some (s2l "int"), s2l "the value"); (s2l "b", None, s2l "other"); (s2l "c", Some (s2l "List[str]"), [])]
  /\ forallb entry_ok [(s2l "a", Some (s2l "int"), Some (s2l "the value")); (s2l "b", None, Some (s2l "other")); (s2l "c", Some (s2l "List[str]"), None)] = true
  /\ google_params [s2l "  a (int): v"; s2l "  b (int):"; s2l "  c (int): w"] = PList [(s2l "a", Some (s2l "int"), s2l "v")]
  /\ google_params [s2l "  a (int or str): v"] = PList [(s2l "a", Some (s2l "Union[int, str]"), s2l "v")]
  /\ google_params [s2l "  a (int)x: v"] = PRaises
  /\ google_params [s2l "  a (int): v"; s2l "  b"; s2l "  c: w"] = PList [(s2l "a", Some (s2l "int"), s2l "v")].
Proof. repeat split; vm_compute; reflexivity. Qed.
