(* The docstring of Model/FuncFmt.v:emit_function (written by Model/RestDoc.v:emit_rest_indented_nt: emit_separating_tab off) is the
   canonical text ftext of FuncFmtProofs. *)
From CDD Require Import PyStr PyStrFacts RestDoc RestDocProofs RestDocIndentProofs FuncFmtProofs.

Definition block (p : str * pentry) : list str := lines_of (s2l "param " ++ fst p) (s2l "type " ++ fst p) true (snd p).

Lemma emit_param_block p : emit_param true p = join [NL] (block p). Proof. reflexivity. Qed.

Lemma one_line_join_false l r : join [NL] (l :: [] :: r) = l ++ NL :: join [NL] ([] :: r).
Proof. reflexivity. Qed.

Theorem emit_nt_is_ftext k doc es :
  clean doc = true -> one_line doc = true -> forallb param_ok es = true -> forallb param_1l es = true -> es <> [] ->
  emit_rest_indented_nt (S k) true doc es None = ftext (S k) doc es.
Proof.
  intros Hd H1 Hp Hp1 Hne. change (emit_rest_indented_nt (S k) true doc es None) with (doc_frame (indent_doc_nt (S k)) doc (args_returns true es None)).
  rewrite indent_doc_nt_as_with. exact (frame_indented pref k [] doc es None (pref_ne _) eq_refl Hd H1 Hp Hp1 eq_refl eq_refl (or_introl Hne)).
Qed.

Definition fparam_1l (p : str * FuncFmt.fparam) : bool :=
  one_line (fst p) && (match FuncFmt.fp_doc (snd p) with Some d => one_line d | None => true end)
  && (match FuncFmt.fp_typ (snd p) with Some t => one_line t | None => true end).

Lemma fparam_1l_entry b p : fparam_1l p = true -> param_1l (fst p, FuncFmt.entry_of b (snd p)) = true.
Proof.
  unfold fparam_1l, param_1l, entry_1l, FuncFmt.entry_of. cbn [fst snd pe_doc pe_typ]. intro H.
  apply andb_prop in H as [H Ht]. apply andb_prop in H as [Hn Hd]. rewrite Hn, Hd. destruct b; [exact Ht | reflexivity].
Qed.

Theorem emit_function_doc ta doc ps :
  clean doc = true -> one_line doc = true -> forallb fparam_ok ps = true -> forallb fparam_1l ps = true -> ps <> [] ->
  FuncFmt.f_doc (FuncFmt.emit_function ta doc ps) = ftext FuncFmt.INDENT doc (map (fun p => (fst p, FuncFmt.entry_of (negb ta) (snd p))) ps).
Proof.
  intros Hd H1 Hp Hp1 Hne. unfold FuncFmt.emit_function. cbn [FuncFmt.f_doc].
  assert (E : emit_rest_indented_nt FuncFmt.INDENT (negb ta) doc (map (fun p => (fst p, FuncFmt.entry_of true (snd p))) ps) None
              = emit_rest_indented_nt FuncFmt.INDENT true doc (map (fun p => (fst p, FuncFmt.entry_of (negb ta) (snd p))) ps) None).
  { destruct ta; [|reflexivity]. unfold emit_rest_indented_nt. rewrite args_returns_false. unfold drop_typs. rewrite map_map. reflexivity. }
  rewrite E. apply emit_nt_is_ftext; try assumption.
  - revert Hp. apply forallb_map_impl, fparam_ok_entry.
  - revert Hp1. apply forallb_map_impl, fparam_1l_entry.
  - apply map_ne, Hne.
Qed.
