(* What is parsed back from a written Google / NumPy entry is, as an input of the emitter again, that entry: one round of these
   formats at text level is a fixpoint. *)
From CDD Require Import PyStr GoogleLineProofs GoogleScanProofs GoogleEmitProofs NumpyLineProofs NumpyScanProofs NumpyEmitProofs.
Open Scope N_scope.

(* an empty description is no description *)
Definition reembed (p : str * option str * str) : str * option str * option str :=
  let '(n, t, d) := p in (n, t, match d with [] => None | _ => Some d end).

Lemma reembed_read e : entry_ok1 e = true -> documented e = true -> reembed (read_entry e) = e.
Proof.
  destruct e as [[n t] [x|]]; [|discriminate]. intros ((_ & _ & [(D1 & _)%doc_ok_spec _])%entry_ok_spec & _)%entry_ok1_spec _.
  destruct x; [discriminate | reflexivity].
Qed.

Definition reembed_n (p : str * option str * option str) : str * option str * option str :=
  let '(n, t, d) := p in (n, t, match d with Some [] => None | x => x end).

Lemma reembed_read_n e : nentry_ok1 e = true -> reembed_n (read_nentry e) = as_entry e.
Proof.
  destruct e as [[n t] [x|]]; [|reflexivity]. intros (_ & _ & _ & [_ Hx])%nentry_ok1_spec.
  destruct x; [contradiction | reflexivity].
Qed.
