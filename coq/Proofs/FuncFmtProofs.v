(* Model/FuncFmt.v: the parser reads the canonical text of a function back as the description it came from. *)
From CDD Require Import PyStr PyStrFacts RestDoc RestDocProofs RestDocIndentProofs Merge MergeProofs FuncFmt.

(* the left side is what parse_function does with a signature [o] and documented parameters [t] that name the same parameters in the
   same order *)
Lemma merge_signature {A} (key : A -> str) (o t : A -> cparam) (l : list A) : NoDup (map key l) ->
  match map (fun x => (key x, t x)) l with
  | [] => map (fun x => (key x, o x)) l
  | _ => match map (fun x => (key x, o x)) l with
         | [] => map (fun x => (key x, t x)) l
         | _ => cmerge (inter_in_order str str_eqb cparam (map (fun x => (key x, o x)) l) (map (fun x => (key x, t x)) l))
                       (map (fun x => (key x, o x)) l) (map (fun x => (key x, t x)) l)
         end
  end = map (fun x => (key x, merge_present (o x) (t x))) l.
Proof. intro H. destruct l as [|x l]; [reflexivity | exact (merge_aligned str str_eqb str_eqb_eq cparam merge_present key o t (x :: l) H)]. Qed.

(* emit_separating_tab off: blank lines carry no tab *)
Definition S2nt (k : nat) : str := NL :: NL :: tabs_of k.
Definition ftext (k : nat) (doc : str) (es : list (str * pentry)) : str :=
  grender (S1_of k) (S2nt k) (S1_of k) (S1_of k) (S2nt k) doc es None.

Lemma blank_S2nt k : blank (S2nt k) = true.
Proof. exact (blank_app [NL; NL] (tabs_of k) eq_refl (blank_tabs k)). Qed.

Definition fparam_ok (p : str * fparam) : bool :=
  name_ok (fst p) && (match fp_doc (snd p) with Some d => clean d | None => false end) && (match fp_typ (snd p) with Some t => typ_ok t | None => false end).
(* the signature Model/FuncFmt.v:emit_function writes (the function it maps over the parameters) *)
Definition sig_of (ta : bool) (ps : list (str * fparam)) : list fsig_arg :=
  map (fun p => {| fa_name := fst p; fa_ann := if ta then fp_typ (snd p) else None;
                   fa_default := match fp_default (snd p) with Some d => d | None => NONE end |}) ps.
Definition read_default (p : fparam) : str := match fp_default p with Some d => if str_eqb d NONE then NoneStr else d | None => NoneStr end.
Definition expected (ps : list (str * fparam)) : list (str * cparam) :=
  map (fun p => (fst p, mkCP (fp_typ (snd p)) (fp_doc (snd p)) (Some (read_default (snd p))))) ps.

Lemma fparam_ok_parts p : fparam_ok p = true ->
  name_ok (fst p) = true /\ exists d t, fp_doc (snd p) = Some d /\ fp_typ (snd p) = Some t /\ clean d = true /\ typ_ok t = true.
Proof.
  unfold fparam_ok. rewrite !andb_true_iff. intros [[Hn Hd] Ht].
  destruct (fp_doc (snd p)) as [d|]; [|discriminate]. destruct (fp_typ (snd p)) as [t|]; [|discriminate]. eauto 8.
Qed.
Lemma fparam_ok_entry b p : fparam_ok p = true -> param_ok (fst p, entry_of b (snd p)) = true.
Proof.
  intro H. destruct (fparam_ok_parts p H) as [Hn [d [t [Ed [Et [Hd Ht]]]]]]. apply param_ok_iff. split; [exact Hn|].
  unfold entry_ok, entry_of. cbn [snd pe_doc pe_typ]. rewrite Ed, Et, Hd. destruct b; [exact Ht | reflexivity].
Qed.

Lemma parse_ftext k doc es : clean doc = true -> forallb param_ok es = true -> NoDup (map fst es) -> es <> [] ->
  parse_rest (ftext k doc es) = {| p_doc := doc; p_params := es; p_ret := None |}.
Proof.
  intros Hd Hes Hnd Hne. unfold ftext. rewrite grender_canon.
  exact (parse_canon_text T_param (S1_of k) (S2nt k) (S1_of k) (S1_of k) (S2nt k) (or_introl eq_refl)
           (blank_S1 k) (blank_S2nt k) (blank_S1 k) (blank_S1 k) (blank_S2nt k) doc es None Hd Hes Hnd eq_refl (or_introl Hne)).
Qed.

Theorem function_parse_canonical ta k doc ps :
  clean doc = true -> forallb fparam_ok ps = true -> NoDup (map fst ps) -> ps <> [] ->
  parse_function {| f_doc := ftext k doc (map (fun p => (fst p, entry_of (negb ta) (snd p))) ps); f_args := sig_of ta ps |} = (doc, expected ps).
Proof.
  intros Hd Hp Hnd Hne. unfold parse_function. cbn [f_doc f_args].
  rewrite parse_ftext; [|exact Hd | revert Hp; apply forallb_map_impl; intro p; apply fparam_ok_entry | rewrite map_map; exact Hnd | apply map_ne, Hne].
  cbn [p_doc p_params]. f_equal.
  unfold sig_of, sig_param. rewrite !map_map. cbn [fst snd fa_name fa_ann fa_default]. rewrite merge_signature by exact Hnd.
  apply map_ext_in. intros p Hin.
  destruct (fparam_ok_parts p (proj1 (forallb_forall _ _) Hp p Hin)) as [_ [d [t [ED [ETy [Hdoc _]]]]]].
  assert (Dne : nonempty (Some d) = true) by (destruct d; [discriminate Hdoc | reflexivity]).
  unfold merge_present, entry_of, read_default. cbn [c_typ c_doc c_default pe_doc pe_typ]. rewrite ED, ETy.
  destruct ta; cbn [negb c_typ c_doc c_default]; rewrite Dne; cbn [negb andb in_none_types]; destruct (fp_default (snd p)) as [dv|]; reflexivity.
Qed.
