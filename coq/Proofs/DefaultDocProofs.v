From Coq Require Import Lia.
From CDD Require Import PyStr PyStrFacts DefaultDoc.

Lemma quote_cases s : quote s = s \/ quote s = [DQ] ++ s ++ [DQ].
Proof. destruct s; [left; reflexivity|]. unfold quote. destruct (_ && _ && _); auto. Qed.
Lemma quote_wrapped s : quote ([DQ] ++ s ++ [DQ]) = [DQ] ++ s ++ [DQ].
Proof.
  cbn [app quote]. rewrite (last_opt_snoc (DQ :: s) DQ : last_opt (DQ :: s ++ [DQ]) = _).
  rewrite (proj2 (Nat.ltb_lt 1 _)) by (cbn [length]; rewrite app_length; cbn; lia). reflexivity.
Qed.

Lemma set_default_doc_once strip doc t : has_defaults doc = false ->
  set_default_doc strip doc (Some t) true = (if ends_with_stop doc then doc else doc ++ [46]) ++ s2l " Defaults to " ++ t.
Proof. intro H. unfold set_default_doc. rewrite H. reflexivity. Qed.
Lemma set_default_doc_fixed strip doc t : has_defaults doc = true -> set_default_doc strip doc (Some t) true = doc.
Proof. intro H. unfold set_default_doc. rewrite H. reflexivity. Qed.
