From CDD Require Import PyStr PyStrFacts ClassFmt.

Definition typed (p : str * cparam) : bool := match cp_typ (snd p) with Some _ => true | None => false end.
Definition item_of (p : str * cparam) : body_item :=
  {| b_name := fst p; b_typ := match cp_typ (snd p) with Some t => t | None => [] end; b_value := cp_default (snd p) |}.

Theorem class_body_carries doc ps : k_body (emit_class doc ps) = map item_of (filter typed ps).
Proof.
  unfold emit_class. cbn [k_body]. induction ps as [|p r IH]; [reflexivity|].
  cbn [flat_map filter]. rewrite IH. change (typed p) with (match cp_typ (snd p) with Some _ => true | None => false end).
  destruct (cp_typ (snd p)) eqn:E; [|reflexivity]. cbn [app map]. unfold item_of at 2. rewrite E. reflexivity.
Qed.

Corollary class_body_all_typed doc ps : forallb typed ps = true -> k_body (emit_class doc ps) = map item_of ps.
Proof. intro H. rewrite class_body_carries, (filter_id typed ps H). reflexivity. Qed.

Example class_body_example :
  k_body (emit_class (s2l "Config") [(s2l "size", {| cp_typ := Some (s2l "int"); cp_doc := Some (s2l "how big"); cp_default := Some (s2l "5") |});
                                     (s2l "label", {| cp_typ := Some (s2l "Optional[str]"); cp_doc := None; cp_default := None |})])
  = [{| b_name := s2l "size"; b_typ := s2l "int"; b_value := Some (s2l "5") |}; {| b_name := s2l "label"; b_typ := s2l "Optional[str]"; b_value := None |}].
Proof. vm_compute. reflexivity. Qed.
