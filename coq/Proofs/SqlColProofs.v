From Coq Require Import Lia.
From CDD Require Import PyStr PyStrFacts SqlCol.
Open Scope N_scope.

Definition plain_doc (d : str) : bool :=   (* no marker in front, no full stop at the end, not empty *)
  negb (startswith (s2l "[PK]") d) && negb (startswith (s2l "[FK") d)
  && match last_opt d with Some c => negb (c =? DOT) | None => false end.
Definition keeps_typ (t : ityp) : bool := match t_base t with BDict => t_opt t | _ => true end.   (* JSON reads back as Optional[dict] *)
Definition head_ok (d : str) : bool := match d with c :: _ => negb (is_space c) | [] => false end.

Definition comment_of (d : str) : option str := match rstrip_dots d with [] => None | c => Some c end.
Definition nullable_of (t : ityp) : option bool := if t_opt t then Some true else None.
Definition nullable_with (t : ityp) (df : option dval) : option bool :=
  match df with Some d => if is_none_default d then nullable_of t else Some false | None => nullable_of t end.

Lemma emit_col_plain t (od : option str) df (doc : str) : doc = match od with Some d => d | None => [] end ->
  startswith (s2l "[PK]") doc = false -> startswith (s2l "[FK") doc = false ->
  emit_col {| p_typ := t; p_doc := od; p_default := df |}
  = {| c_type := ctype_of (t_base t); c_fk := None; c_pk := false; c_comment := comment_of doc; c_default := df; c_nullable := nullable_with t df |}.
Proof. intros -> P F. unfold emit_col. cbn [p_doc p_typ p_default]. rewrite P, F. reflexivity. Qed.

Lemma emit_col_pk t rest df :
  emit_col {| p_typ := t; p_doc := Some (s2l "[PK]" ++ rest); p_default := df |}
  = {| c_type := ctype_of (t_base t); c_fk := None; c_pk := true; c_comment := comment_of (lstrip rest); c_default := df; c_nullable := nullable_of t |}.
Proof.
  unfold emit_col. cbn [p_doc p_typ p_default]. rewrite startswith_app, (slice_from_app _ (s2l "[PK]") rest) by reflexivity. reflexivity.
Qed.

(* the first "]" closes the marker *)
Lemma emit_col_fk t f rest df : ~ In RB f ->
  emit_col {| p_typ := t; p_doc := Some (s2l "[FK(" ++ f ++ s2l ")]" ++ rest); p_default := df |}
  = {| c_type := ctype_of (t_base t); c_fk := Some f; c_pk := false; c_comment := comment_of (lstrip rest); c_default := df; c_nullable := nullable_of t |}.
Proof.
  intro Hf. unfold emit_col. cbn [p_doc p_typ p_default]. set (doc := s2l "[FK(" ++ f ++ s2l ")]" ++ rest). set (pre := s2l "[FK(" ++ f ++ s2l ")").
  assert (E : doc = pre ++ [RB] ++ rest) by (unfold doc, pre; rewrite <- !app_assoc; reflexivity).
  assert (L : slen pre = (4 + (slen f + 1))%Z) by (unfold pre; rewrite !slen_app; reflexivity).
  assert (Efind : find [RB] doc = slen pre).
  { rewrite E. apply (find_from_skip RB pre rest 0). unfold pre. rewrite !in_app_iff. intros [K|[K|K]]; [|exact (Hf K)|]; cbn in K; intuition discriminate. }
  assert (Erest : slice_from doc (slen pre + 1) = rest) by (apply (slice_from_app _ (pre ++ [RB]) rest); [rewrite E; apply app_assoc | symmetry; apply slen_app]).
  assert (Eval : slice doc 4 (slen pre + 1 - 2) = f) by (apply (slice_mid _ (s2l "[FK(") f (s2l ")]" ++ rest)); [reflexivity | reflexivity | lia]).
  rewrite Efind, Erest, Eval. reflexivity.
Qed.

Lemma rstrip_dots_id d : match last_opt d with Some c => negb (c =? DOT) | None => false end = true -> rstrip_dots d = d.
Proof.
  destruct (last_opt d) as [c|] eqn:L; [|discriminate]. intro H. destruct (last_opt_split d c L) as [r ->].
  unfold rstrip_dots. rewrite rstrip_chars_rdropwhile, rdropwhile_snoc. unfold among, ceq. cbn [existsb].
  apply negb_true_iff in H. rewrite H. reflexivity.
Qed.
Lemma comment_of_id d : match last_opt d with Some c => negb (c =? DOT) | None => false end = true -> comment_of d = Some d.
Proof. intro H. unfold comment_of. rewrite (rstrip_dots_id d H). destruct d; [discriminate | reflexivity]. Qed.
Lemma lstrip_sp_head d : head_ok d = true -> lstrip (SP :: d) = d.
Proof. destruct d as [|c r]; [discriminate|]. cbn. intro H. apply negb_true_iff in H. rewrite H. reflexivity. Qed.

(* parse_col (emit_col _) on a description without marker, in closed form *)
Definition round_typ (t : ityp) (df : option dval) : ityp :=
  match nullable_with t df with
  | Some true => {| t_opt := true; t_base := t_base (base_of (ctype_of (t_base t))) |}
  | _ => base_of (ctype_of (t_base t))
  end.
Definition round_doc (doc : str) (df : option dval) : option str :=
  let c := comment_of doc in match df, c with Some _, Some d => Some (d ++ [DOT]) | _, d => d end.

Lemma round_typ_keeps t : keeps_typ t = true -> round_typ t None = t.
Proof. destruct t as [[] []]; try reflexivity; discriminate. Qed.

Lemma round_plain_doc t d df : plain_doc d = true ->
  let p := {| p_typ := t; p_doc := Some d; p_default := df |} in
  c_nullable (emit_col p) = nullable_with t df
  /\ parse_col (emit_col p) = {| p_typ := round_typ t df; p_doc := Some (match df with Some _ => d ++ [DOT] | None => d end); p_default := df |}.
Proof.
  unfold plain_doc. rewrite !andb_true_iff, !negb_true_iff. intros [[P F] C%comment_of_id]. cbn zeta.
  rewrite (emit_col_plain t (Some d) df d eq_refl P F), C. split; [reflexivity|]. destruct df; reflexivity.
Qed.

Lemma parse_col_key t fk pk d : keeps_typ t = true ->
  parse_col {| c_type := ctype_of (t_base t); c_fk := fk; c_pk := pk; c_comment := Some d; c_default := None; c_nullable := nullable_of t |}
  = {| p_typ := t; p_default := None;
       p_doc := Some (if pk then s2l "[PK] " ++ d else match fk with Some f => s2l "[FK(" ++ f ++ s2l ")] " ++ d | None => d end) |}.
Proof.
  intro Ht. unfold parse_col. cbn [c_type c_nullable c_comment c_pk c_fk c_default].
  f_equal; [exact (round_typ_keeps t Ht) | destruct pk, fk; reflexivity].
Qed.

(* outside the domain of C05_column_roundtrip (keeps_typ, plain_doc): Optional with a non-None default loses Optional; trailing full stops are dropped; dict reads back Optional *)
Example col_refuted :
  p_typ (parse_col (emit_col {| p_typ := {| t_opt := true; t_base := BInt |}; p_doc := Some (s2l "n"); p_default := Some (DVal (s2l "5")) |}))
    = {| t_opt := false; t_base := BInt |}
  /\ p_doc (parse_col (emit_col {| p_typ := {| t_opt := false; t_base := BInt |}; p_doc := Some (s2l "the a.."); p_default := None |})) = Some (s2l "the a")
  /\ p_typ (parse_col (emit_col {| p_typ := {| t_opt := false; t_base := BDict |}; p_doc := Some (s2l "d"); p_default := None |})) = {| t_opt := true; t_base := BDict |}.
Proof. repeat split; vm_compute; reflexivity. Qed.
