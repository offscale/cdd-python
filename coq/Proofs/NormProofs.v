From CDD Require Import PyStr Norm.
Open Scope N_scope.

Lemma N_id_on_dom f p : dom03 p = true -> N f p = Some p.
Proof.
  destruct p as [t d]. unfold dom03, N. intro H. apply andb_true_iff in H as [Hw H]. rewrite Hw. cbn [snd] in H.
  destruct f, d; try discriminate; try reflexivity; try (destruct s; [discriminate|reflexivity]).
  cbn. rewrite (proj2 (Z.ltb_ge z 0)) by (apply Z.leb_le, H). reflexivity.
Qed.

(* most rows return the parameter itself, or one that the same row returns unchanged whatever its type; three need a look (argparse
   without default, docstring with None, docstring with a negative int) *)
Lemma N_twice f p : match N f p with Some q => N f q = Some q | None => True end.
Proof.
  destruct p as [t d]. unfold N at 1. destruct (well_typed (t, d)) eqn:W.
  - destruct f, d as [| |z|r|b|[|c s]]; cbn [N0]; try (unfold N; cbn [N0 t_inner]; rewrite ?W; reflexivity).
    + destruct t as [[] [[]|ms]]; reflexivity.
    + unfold N. destruct (well_typed (t, DStr _)); reflexivity.
    + destruct (z <? 0)%Z eqn:Neg; unfold N; [destruct (well_typed (t, DFloat _)); reflexivity|].
      rewrite W. cbn [N0]. rewrite Neg. reflexivity.
  - destruct f; try exact I. unfold N. rewrite W. reflexivity.
Qed.

Fixpoint rounds (n : nat) (f : fmt) (p : cparam) : option cparam :=
  match n with
  | O => Some p
  | S k => match N f p with Some q => rounds k f q | None => None end
  end.
