(* Model/Reindent.v: the examples of C07_header_untouched_by_reindent -- a header WITH a run of four blanks (inside a string default,
   say) is altered, which is how doctrans comes to re-print it. *)
From CDD Require Import PyStr Reindent.

Example header_with_four_blanks_refuted :
  reindent_block_with_pass_body (s2l "    def f(a, indent='    '):") = s2l "def f(a, indent=''): pass".
Proof. vm_compute. reflexivity. Qed.

Example header_example :
  reindent_block_with_pass_body (s2l "    def f(a: int = 5, *rest, sep=',  '):") = s2l "def f(a: int = 5, *rest, sep=',  '): pass".
Proof. vm_compute. reflexivity. Qed.
