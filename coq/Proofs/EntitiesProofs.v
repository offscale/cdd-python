(* The state extract_entities is in after a plain word, after a word between ``` fences and after a run of such tokens, each followed by
   a blank. *)
From CDD Require Import PyStr Entities.
Open Scope N_scope.

Definition plain (w : str) : bool := forallb (fun c => negb (is_space c) && negb (c =? TICK)) w.
Definition FENCE3 : str := [TICK; TICK; TICK].

(* (fenced?, word) *)
Definition token := (bool * str)%type.
Definition render (t : token) : str := if fst t then FENCE3 ++ snd t ++ FENCE3 else snd t.
Definition token_ok (t : token) : bool := plain (snd t) && (negb (fst t) || negb (Nat.eqb (length (snd t)) 0)).

Definition clean_state (ents : list str) : estate := {| e_entities := ents; e_ticks := 0; e_stack := [] |}.

Lemma plain_cons c w : plain (c :: w) = true -> is_space c = false /\ (c =? TICK) = false /\ plain w = true.
Proof.
  cbn [plain forallb]. intro H. apply andb_prop in H as [Hc Hw]. apply andb_prop in Hc as [C1 C2].
  apply negb_true_iff in C1, C2. auto.
Qed.

(* empty stack: outside a fence, the word is skipped; otherwise it is collected *)
Lemma run_word : forall w ents st, plain w = true ->
  fold_left estep w {| e_entities := ents; e_ticks := 0; e_stack := st |}
  = {| e_entities := ents; e_ticks := 0; e_stack := match st with [] => [] | _ => st ++ w end |}.
Proof.
  induction w as [|c w IH]; intros ents st H; [destruct st; [|rewrite app_nil_r]; reflexivity|].
  apply plain_cons in H as (C1 & C2 & Hw). cbn [fold_left]. unfold estep at 2. cbn [e_ticks e_stack e_entities Nat.ltb Nat.leb]. rewrite C1, C2.
  destruct st as [|s0 st']; rewrite IH by assumption; [reflexivity|]. rewrite <- app_assoc. reflexivity.
Qed.

Lemma three_ticks ents st :
  fold_left estep FENCE3 {| e_entities := ents; e_ticks := 0; e_stack := st |} = {| e_entities := ents; e_ticks := 3; e_stack := st |}.
Proof. reflexivity. Qed.

Lemma step_first c ents : is_space c = false ->
  estep {| e_entities := ents; e_ticks := 3; e_stack := [] |} c = {| e_entities := ents; e_ticks := 0; e_stack := [c] |}.
Proof. intro H. unfold estep. rewrite H. reflexivity. Qed.

Definition entities_of (ts : list token) : list str := map snd (filter fst ts).

Lemma entities_of_app a b : entities_of (a ++ b) = entities_of a ++ entities_of b.
Proof. unfold entities_of. rewrite filter_app, map_app. reflexivity. Qed.

(* the state a token leaves behind, for a blank or the end of the text to close *)
Definition after_token (t : token) (ents : list str) : estate :=
  {| e_entities := ents; e_ticks := if fst t then 3 else 0; e_stack := if fst t then snd t else [] |}.

Lemma run_token t ents : token_ok t = true -> fold_left estep (render t) (clean_state ents) = after_token t ents.
Proof.
  destruct t as [[|] w]; unfold token_ok, render, after_token; cbn [fst snd]; intro H; apply andb_prop in H as [Hp Hn].
  - (* a fenced word: three ticks, its first character (which empties the tick count), the rest as a word, three ticks *)
    destruct w as [|c w]; [discriminate Hn|]. apply plain_cons in Hp as (C1 & _ & Hw).
    rewrite !fold_left_app. unfold clean_state. rewrite three_ticks. cbn [fold_left]. rewrite (step_first c ents C1).
    rewrite (run_word w ents [c] Hw). apply three_ticks.
  - apply (run_word w ents [] Hp).
Qed.

Lemma token_closed t ents : token_ok t = true ->
  e_entities (add_then_clear (after_token t ents)) = ents ++ entities_of [t]
  /\ forall c, is_space c = true -> estep (after_token t ents) c = clean_state (ents ++ entities_of [t]).
Proof.
  destruct t as [[|] w]; unfold token_ok, after_token, entities_of, estep, add_then_clear, clean_state;
    cbn [fst snd filter map e_entities e_stack e_ticks]; intro H; apply andb_prop in H as [_ Hn].
  - destruct w as [|w0 w']; [discriminate Hn|]. split; [reflexivity | intros c ->; reflexivity].
  - rewrite app_nil_r. split; [reflexivity | intros c ->; reflexivity].
Qed.

Definition spaced := (token * char)%type.
Definition render_spaced (tc : spaced) : str := render (fst tc) ++ [snd tc].
Definition spaced_ok (tc : spaced) : bool := token_ok (fst tc) && is_space (snd tc).

Lemma run_tokens : forall (ts : list spaced) ents, forallb spaced_ok ts = true ->
  fold_left estep (concat (map render_spaced ts)) (clean_state ents) = clean_state (ents ++ entities_of (map fst ts)).
Proof.
  induction ts as [|[t c] r IH]; intros ents H; cbn [map concat]; [unfold entities_of; cbn; rewrite app_nil_r; reflexivity|].
  cbn [forallb] in H. apply andb_prop in H as [Ht Hr]. unfold spaced_ok in Ht. cbn [fst snd] in Ht. apply andb_prop in Ht as [T1 T2].
  unfold render_spaced at 1. cbn [fst snd].
  rewrite !fold_left_app, (run_token t ents T1). cbn [fold_left]. rewrite (proj2 (token_closed t ents T1) c T2), (IH _ Hr), <- app_assoc.
  rewrite <- entities_of_app. reflexivity.
Qed.

Example entities_example :
  extract_entities (s2l "responses:" ++ [NL] ++ s2l "  '200':" ++ [NL] ++ s2l "    description: A `Config` object." ++ [NL] ++ s2l "    $ref: ```Config```" ++ [NL]
                    ++ s2l "  '400':" ++ [NL] ++ s2l "    $ref: ```ServerError```")
  = [s2l "Config"; s2l "ServerError"]
  /\ pick_entity [s2l "Config"; s2l "ServerError"] = Some (s2l "Config")
  /\ pick_entity [s2l "ServerError"] = None.
Proof. repeat split; vm_compute; reflexivity. Qed.

(* a character glued to the closing fence becomes an entity of its own *)
Example entities_refuted : extract_entities (s2l "```Config```s") = [s2l "Config"; s2l "s"].
Proof. vm_compute. reflexivity. Qed.
