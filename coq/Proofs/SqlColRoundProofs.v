(* One round (emit a column, read it back) of a parameter without key marker settles the type and the description, whatever the type,
   the default and the number of trailing full stops. *)
From CDD Require Import PyStr PyStrFacts SqlCol SqlColProofs.
Open Scope N_scope.

Definition PKM : str := Eval vm_compute in s2l "[PK]".
Definition FKM : str := Eval vm_compute in s2l "[FK".
Definition doc_of (p : param) : str := match p_doc p with Some d => d | None => [] end.
Definition no_marker (d : str) : bool := negb (startswith PKM d) && negb (startswith FKM d).
Definition round (p : param) : param := parse_col (emit_col p).

Lemma round_no_marker p : no_marker (doc_of p) = true ->
  round p = {| p_typ := round_typ (p_typ p) (p_default p); p_doc := round_doc (doc_of p) (p_default p); p_default := p_default p |}.
Proof.
  intro H. apply andb_prop in H as [P F]. apply negb_true_iff in P, F. destruct p as [t od df]. unfold round. rewrite (emit_col_plain t od df _ eq_refl P F). reflexivity.
Qed.

Lemma round_typ_idem t df : round_typ (round_typ t df) df = round_typ t df.
Proof. destruct t as [[] b], df as [[|v]|]; unfold round_typ, nullable_with; try destruct (is_none_default _); destruct b; reflexivity. Qed.

Lemma base_round b : t_base (base_of (ctype_of b)) = b.
Proof. destruct b; reflexivity. Qed.

Lemma no_marker_prefix a b : no_marker (a ++ b) = true -> no_marker a = true.
Proof.
  unfold no_marker. intro H. apply andb_prop in H as [H1 H2].
  destruct (startswith PKM a) eqn:E1; [rewrite (startswith_app_l _ _ b E1) in H1; discriminate|].
  destruct (startswith FKM a) eqn:E2; [rewrite (startswith_app_l _ _ b E2) in H2; discriminate|]. reflexivity.
Qed.
Lemma no_marker_snoc_dot a : no_marker a = true -> no_marker (a ++ [DOT]) = true.
Proof.
  unfold no_marker. intro H. apply andb_prop in H as [H1 H2].
  destruct (startswith PKM (a ++ [DOT])) eqn:E1; [rewrite (startswith_snoc_notin DOT PKM) in H1; [discriminate | vm_compute; intuition discriminate | exact E1]|].
  destruct (startswith FKM (a ++ [DOT])) eqn:E2; [rewrite (startswith_snoc_notin DOT FKM) in H2; [discriminate | vm_compute; intuition discriminate | exact E2]|].
  reflexivity.
Qed.

Lemma round_doc_stable doc df : no_marker doc = true ->
  let doc' := match round_doc doc df with Some d => d | None => [] end in
  no_marker doc' = true /\ round_doc doc' df = round_doc doc df.
Proof.
  intro H. unfold round_doc, comment_of, rstrip_dots. rewrite rstrip_chars_rdropwhile.
  destruct (rdropwhile_prefix (among [DOT]) doc) as [t Ht]. pose proof (rdropwhile_idem (among [DOT]) doc) as Hi.
  rewrite Ht in H. apply no_marker_prefix in H.
  destruct (rdropwhile (among [DOT]) doc) as [|c0 cr]; [destruct df; split; reflexivity|].
  destruct df; rewrite rstrip_chars_rdropwhile.
  - rewrite rdropwhile_snoc. change (among [DOT] DOT) with true. cbv iota. rewrite Hi. split; [apply no_marker_snoc_dot, H | reflexivity].
  - rewrite Hi. split; [exact H | reflexivity].
Qed.

Example col_round_example :
  round (round {| p_typ := {| t_opt := false; t_base := BStr |}; p_doc := Some (s2l "the unit, in m/s etc..."); p_default := None |})
  = round {| p_typ := {| t_opt := false; t_base := BStr |}; p_doc := Some (s2l "the unit, in m/s etc..."); p_default := None |}
  /\ p_doc (round {| p_typ := {| t_opt := false; t_base := BStr |}; p_doc := Some (s2l "the unit, in m/s etc..."); p_default := None |})
     = Some (s2l "the unit, in m/s etc").
Proof. split; vm_compute; reflexivity. Qed.
