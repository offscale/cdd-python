From CDD Require Import PyStr ArgRead.
Open Scope N_scope.

(* a member of `choices` as it stands inside the Literal when the type is str *)
Definition quoted (v : pyval) : str := s2l "'" ++ v_str v ++ s2l "'".
(* a type name that handle_value does not rewrite ("loads" becomes Optional[dict]) and that does not spell "Optional" already: whether the
   reader wraps it in Optional[...] is then decided by `required` alone *)
Definition plain_typ (t : str) : bool := negb (str_eqb t (s2l "loads")) && negb (contains (s2l "Optional") t).

Theorem required_without_default c : a_default c = None -> a_help c = None -> a_required c = true -> a_choices c = None ->
  option_map r_default (parse_out_param c)
  = Some (Some (match simple_default (match a_type c with Some t => handle_value t | None => s2l "str" end) with Some v => AVal v | None => ANoneStr end)).
Proof. intros Hd Hh Hr Hc. unfold parse_out_param. rewrite Hd, Hh, Hr, Hc. reflexivity. Qed.

(* members that are not strings under a type other than str: ", ".join raises *)
Example int_choices_raise :
  parse_out_param {| a_name := s2l "n"; a_type := Some (s2l "int"); a_help := None; a_required := true; a_default := None; a_action := None;
                     a_choices := Some [{| v_repr := s2l "2"; v_str := s2l "2"; v_empty := false; v_is_str := false |}] |} = None.
Proof. vm_compute. reflexivity. Qed.

Example argread_examples :
  parse_out_param {| a_name := s2l "seed"; a_type := Some (s2l "int"); a_choices := None; a_help := Some (s2l "the seed"); a_required := false;
                     a_default := Some {| v_repr := s2l "0"; v_str := s2l "0"; v_empty := false; v_is_str := false |}; a_action := None |}
  = Some {| r_name := s2l "seed"; r_doc := Some (s2l "the seed. Defaults to 0"); r_typ := s2l "Optional[int]";
            r_default := Some (AVal {| v_repr := s2l "0"; v_str := s2l "0"; v_empty := false; v_is_str := false |}) |}
  /\ option_map r_typ (parse_out_param {| a_name := s2l "mode"; a_type := None; a_help := None; a_required := true; a_default := None; a_action := None;
                               a_choices := Some [{| v_repr := s2l "'train'"; v_str := s2l "train"; v_empty := false; v_is_str := true |};
                                                  {| v_repr := s2l "'eval'"; v_str := s2l "eval"; v_empty := false; v_is_str := true |};
                                                  {| v_repr := s2l "'predict'"; v_str := s2l "predict"; v_empty := false; v_is_str := true |}] |})
     = Some (s2l "Literal['train', 'eval', 'predict']").
Proof. split; vm_compute; reflexivity. Qed.
