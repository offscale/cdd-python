From CDD Require Import PyStr PyStrFacts RestDocProofs RestDocIndentProofs GoogleLine GoogleLineProofs GoogleHead GoogleHeadProofs GoogleScan SectionProofs.
Open Scope N_scope.

Lemma google_unit_single l : google_unit [l] = parse_google_unit l.
Proof.
  unfold google_unit. destruct (parse_google_unit l) as [n t d| | |] eqn:E; try (destruct (break_at GCOLON l) as [[? ?]|]; reflexivity).
  destruct (parse_google_unit_ok l n t d E) as [pre [post [_ [B [_ ->]]]]]. rewrite B. cbn [join]. rewrite strip_lstrip. reflexivity.
Qed.

Lemma units_single : forall L,
  map google_unit (take_until unit_is_afterward (map (fun l => [l]) L)) = map parse_google_unit (take_until is_afterward L).
Proof.
  induction L as [|l r IH]; [reflexivity|]. cbn [map take_until unit_is_afterward].
  destruct (is_afterward l); [reflexivity|]. cbn [map]. rewrite google_unit_single, IH. reflexivity.
Qed.

Definition entry_ok1 (e : entry) : bool :=
  let '(n, t, d) := e in
  entry_ok e && one_line n && match t with Some x => one_line x | None => true end && match d with Some x => one_line x | None => true end.

Lemma entry_ok1_spec n t d : entry_ok1 (n, t, d) = true <->
  entry_ok (n, t, d) = true /\ one_line n = true /\ match t with Some x => one_line x = true | None => True end
  /\ match d with Some x => one_line x = true | None => True end.
Proof.
  unfold entry_ok1. split.
  - intros [[[He Hn]%andb_prop Ht]%andb_prop Hd]%andb_prop. destruct t, d; repeat split; assumption.
  - intros (-> & -> & Ht & Hd). destruct t, d; rewrite ?Ht, ?Hd; reflexivity.
Qed.

Lemma entry_ok1_ok e : entry_ok1 e = true -> entry_ok e = true.
Proof. destruct e as [[n t] d]. intros [H _]%entry_ok1_spec. exact H. Qed.

(* 2: the two blanks emit_google_param writes in front of a parameter line *)
Lemma emit_entry_unit e : entry_ok1 e = true -> unit_ok 2 [emit_entry e] /\ Forall (fun l => one_line l = true) [emit_entry e].
Proof.
  destruct e as [[n t] d]. intros ([(N1 & _)%name_ok_spec _]%entry_ok_spec & Hn & Ht & Hd)%entry_ok1_spec.
  assert (L1 : one_line (emit_entry (n, t, d)) = true).
  { cbn [emit_entry]. unfold emit_google_param. rewrite !one_line_app, Hn. destruct t, d; rewrite ?one_line_app, ?Ht, ?Hd; reflexivity. }
  split; [|constructor; [exact L1 | constructor]].
  destruct n as [|c n']; [discriminate|]. split; [discriminate | split; [|constructor]].
  cbn. rewrite (head_ok_not_space c n' N1). reflexivity.
Qed.

Theorem google_docstring_read (trail : bool) (pre hd sep : str) (es : list entry) :
  blank pre = true -> head_ok hd = true -> head_ok (rev hd) = true -> lacks GCOLON hd = true -> blank sep = true ->
  es <> [] -> forallb entry_ok1 es = true ->
  google_docstring (pre ++ hd ++ sep ++ ARGS ++ [NL] ++ join [NL] (map emit_entry es) ++ if trail then [NL] else [])
  = (hd, PList (map read_entry es)).
Proof.
  intros BP H1 H2 HC B Hne Hes. apply forallb_Forall in Hes. unfold google_docstring.
  destruct (google_head_general pre hd sep ([NL] ++ join [NL] (map emit_entry es) ++ if trail then [NL] else []) BP H1 H2 HC B) as [-> ->].
  cbn [app skipn]. f_equal.
  rewrite <- (concat_singletons (map emit_entry es)), map_map, (section_units_join 2 _ trail).
  - cbn [fst]. rewrite <- (map_map emit_entry (fun l => [l])), units_single. apply google_params_roundtrip, forallb_Forall.
    exact (Forall_impl _ entry_ok1_ok Hes).
  - destruct es; [contradiction | discriminate].
  - apply Forall_map. exact (Forall_impl _ emit_entry_unit Hes).
Qed.

Example google_docstring_example :
  google_docstring ([NL] ++ s2l "Load the dataset." ++ [NL; NL] ++ s2l "Rows are kept in order." ++ [NL; NL] ++ s2l "Args:" ++ [NL]
                    ++ s2l "  name (str): dataset to load" ++ [NL] ++ s2l "  batch_size (int): " ++ [NL] ++ s2l "  shuffle: randomise the row order")
  = (s2l "Load the dataset." ++ [NL; NL] ++ s2l "Rows are kept in order.",
     PList [(s2l "name", Some (s2l "str"), s2l "dataset to load"); (s2l "batch_size", Some (s2l "int"), []); (s2l "shuffle", None, s2l "randomise the row order")]).
Proof. vm_compute. reflexivity. Qed.
