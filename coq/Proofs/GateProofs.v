From Coq Require Import List.
Import ListNotations.
From CDD Require Import PyStr Gate.

Lemma mem_not_nil m l : mem_str m l = true -> is_nil l = false.
Proof. destruct l; [discriminate | reflexivity]. Qed.
