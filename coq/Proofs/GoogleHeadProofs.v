From CDD Require Import PyStr RestDocProofs GoogleLine GoogleLineProofs GoogleHead SectionProofs.
Open Scope N_scope.

(* The token is split at a character the header lacks, the colon: ARGS is "Args" ++ ":" ++ "" by evaluation, and google_scan_head /
   google_ir_doc are scan_head / ir_doc at ARGS and RETURNS by conversion. *)
Theorem google_head_general (pre hd sep rest : str) :
  blank pre = true -> head_ok hd = true -> head_ok (rev hd) = true -> lacks GCOLON hd = true -> blank sep = true ->
  google_scan_head (pre ++ hd ++ sep ++ ARGS ++ rest) = (hd, Some (skipn 1 rest)) /\ google_ir_doc (pre ++ hd ++ sep ++ ARGS ++ rest) = hd.
Proof. exact (scan_head_general GCOLON (s2l "Args") [] RETURNS pre hd sep rest eq_refl eq_refl). Qed.

Example google_header_examples :
  google_ir_doc (s2l "Scale it." ++ [NL; NL] ++ s2l "Nothing is modified in place." ++ [NL] ++ s2l "Args:" ++ [NL] ++ s2l "  x (int): v")
  = s2l "Scale it." ++ [NL; NL] ++ s2l "Nothing is modified in place."
  /\ google_ir_doc (s2l "Scale it." ++ [NL; SP; SP; SP; SP; NL; SP; SP; SP; SP] ++ s2l "Args:" ++ [NL] ++ s2l "  x (int): v") = s2l "Scale it."
  /\ google_ir_doc (s2l "No section here") = s2l "No section here".
Proof. repeat split; vm_compute; reflexivity. Qed.

(* prose that spells "Args:" wins over the real token *)
Example google_header_refuted :
  google_ir_doc (s2l "See Args: below." ++ [NL; NL] ++ s2l "Args:" ++ [NL] ++ s2l "  x: v") = s2l "See".
Proof. vm_compute. reflexivity. Qed.
