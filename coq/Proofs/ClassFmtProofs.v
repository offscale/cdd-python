From CDD Require Import PyStr PyStrFacts RestDoc ClassFmt RestDocProofs RestDocIndentProofs ClassBodyProofs.

Definition T_cvar : str := Eval vm_compute in s2l ":cvar".

(* the class docstring as a canonical text: S2, SF, HP, HS as in RestDocProofs Section Canon (no S1: a :cvar entry is one line) *)
Section CvarLines.
  Variables S2 SF HP HS : str.

  Fixpoint clines (ps : list (str * str)) : list (str * str) :=
    match ps with
    | [] => []
    | [(n, d)] => [(T_cvar, named_body n (d ++ SF))]
    | (n, d) :: r => (T_cvar, named_body n (d ++ S2)) :: clines r
    end.
  Definition crender (doc : str) (ps : list (str * str)) : str := (HP ++ doc ++ HS) ++ concat (map cat (clines ps)).
End CvarLines.

Definition doc_entry (p : str * str) : str * pentry := (fst p, {| pe_doc := Some (snd p); pe_typ := None |}).

Lemma clines_cons S2 SF p ps : ps <> [] -> clines S2 SF (p :: ps) = (T_cvar, named_body (fst p) (snd p ++ S2)) :: clines S2 SF ps.
Proof. destruct p, ps; [contradiction | reflexivity]. Qed.
Lemma clines_canon S2 SF : forall ps, clines S2 SF ps = params_lines T_cvar [] S2 (map doc_entry ps) SF.
Proof. induction ps as [|[n d] [|q r] IH]; [reflexivity | reflexivity|]. rewrite clines_cons, IH by discriminate. reflexivity. Qed.
Lemma crender_canon S2 SF HP HS doc ps : crender S2 SF HP HS doc ps = canon_text T_cvar [] S2 SF HP HS doc (map doc_entry ps) None.
Proof. unfold crender, canon_text, canon_lines. rewrite clines_canon. reflexivity. Qed.

Definition doc_of (p : str * cparam) : str := match cp_doc (snd p) with Some d => d | None => [] end.
(* a description is required: without one cvar_line writes nothing, the docstring parser returns no such entry and parse_class
   appends it when it meets the body item, behind the documented ones *)
Definition cparam_ok (p : str * cparam) : bool :=
  name_ok (fst p) && one_line (fst p)
  && (match cp_doc (snd p) with Some d => clean d && one_line d | None => false end)
  && (match cp_typ (snd p) with Some _ => true | None => false end).
Definition docs_of (ps : list (str * cparam)) : list (str * str) := map (fun p => (fst p, doc_of p)) ps.

Lemma cparam_ok_parts p : cparam_ok p = true ->
  name_ok (fst p) = true /\ one_line (fst p) = true /\ (exists d, cp_doc (snd p) = Some d /\ clean d = true /\ one_line d = true) /\ (exists t, cp_typ (snd p) = Some t).
Proof.
  unfold cparam_ok. intro H. apply andb_true_iff in H as [H Ht]. apply andb_true_iff in H as [H Hd]. apply andb_true_iff in H as [Hn H1].
  repeat split; try assumption.
  - destruct (cp_doc (snd p)) as [d|]; [|discriminate]. apply andb_true_iff in Hd as [A B]. exists d. auto.
  - destruct (cp_typ (snd p)) as [t|]; [|discriminate]. exists t. reflexivity.
Qed.

Lemma cvar_line_text p : cparam_ok p = true -> cvar_line p = T_cvar ++ named_body (fst p) (doc_of p).
Proof.
  intro H. destruct (cparam_ok_parts p H) as [_ [_ [[d [Ed [Hc _]]] _]]]. unfold cvar_line, doc_of. rewrite Ed.
  destruct (clean_nonempty d Hc) as [-> ->]. unfold named_body. rewrite <- app_assoc. reflexivity.
Qed.

Lemma cvar_line_facts p : cparam_ok p = true -> ends_ok (cvar_line p) /\ one_line (cvar_line p) = true.
Proof.
  intro H. rewrite (cvar_line_text p H). destruct (cparam_ok_parts p H) as [_ [N1 [[d [Ed [Hc H1]]] _]]].
  unfold doc_of. rewrite Ed. destruct (proj1 (clean_iff d) Hc) as [_ [T _]].
  change (T_cvar ++ named_body (fst p) d) with (T_cvar ++ [SP] ++ fst p ++ [COLON; SP] ++ d).
  repeat split; [repeat apply tail_ok_app_r; exact T | rewrite !one_line_app, N1, H1; reflexivity].
Qed.

Lemma clines_text S2 SF : forall ps, forallb cparam_ok ps = true -> ps <> [] ->
  concat (map cat (clines S2 SF (docs_of ps))) = join S2 (map cvar_line ps) ++ SF.
Proof.
  induction ps as [|p [|q r] IH]; intros H Hne; [contradiction | |]; cbn [forallb] in H; apply andb_true_iff in H as [Hp H].
  - cbn [docs_of map clines concat join]. unfold cat. cbn [fst snd]. rewrite (cvar_line_text p Hp), named_body_app, app_nil_r, <- app_assoc. reflexivity.
  - change (docs_of (p :: q :: r)) with ((fst p, doc_of p) :: docs_of (q :: r)). rewrite clines_cons by discriminate.
    cbn [map concat]. rewrite (IH H) by discriminate. unfold cat at 1. cbn [fst snd].
    rewrite (join_cons_ne S2 (cvar_line p)) by discriminate. rewrite (cvar_line_text p Hp), named_body_app, <- !app_assoc. reflexivity.
Qed.

Definition TABS1 : str := tabs_of 1.
Definition C_HP : str := NL :: TABS1.
Definition C_HS : str := NL :: TABS1 ++ NL :: TABS1.

Theorem class_docstring_is_crender doc ps :
  clean doc = true -> one_line doc = true -> forallb cparam_ok ps = true -> ps <> [] ->
  class_docstring doc ps = crender C_HP [] C_HP C_HS doc (docs_of ps).
Proof.
  intros Hd H1 Hp Hne. destruct (proj1 (clean_iff doc) Hd) as [D1 [D2 _]].
  set (L := map cvar_line ps). assert (Lne : L <> []) by (apply map_ne, Hne).
  assert (F : Forall ends_ok L /\ Forall (fun l => one_line l = true) L).
  { apply Forall_and_inv, Forall_map, Forall_forall. intros p Hin. rewrite forallb_forall in Hp. apply cvar_line_facts, Hp, Hin. }
  destruct F as [Fe Fl]. destruct (join_ends_ok [NL] L Lne Fe) as [P1 P2].
  (* by conversion: Model/ClassFmt.v writes the frame out *)
  change (class_docstring doc ps) with (rstrip (doc_frame (indent_doc 1) doc (class_args ps))).
  unfold class_args. fold L. rewrite (nls_end_tail_ok _ P2). cbn [Nat.ltb Nat.leb].
  rewrite (doc_frame_section _ doc false false _ D1 D2 P1 P2). change (join [NL] L) with (blocks_text [NL] [NL; NL] [L]).
  rewrite (indent_doc_blocks 0 doc [L] D1 H1 ltac:(discriminate) (Forall_cons _ (conj Lne Fe) (Forall_nil _)) (Forall_cons _ Fl (Forall_nil _))).
  unfold crender. rewrite (clines_text C_HP [] ps Hp Hne), app_nil_r.
  (* S1_of 1 is C_HP, S2_of 1 is C_HS, and the text of the one block is join C_HP L *)
  rewrite !app_assoc. apply rstrip_blank_suffix; [|apply (blank_S1 1)].
  rewrite <- !app_assoc. do 3 apply tail_ok_app_r. apply (join_ends_ok C_HP L Lne Fe).
Qed.

(* the function Model/ClassFmt.v:parse_class folds over the body of the class *)
Definition body_step (acc : list (str * cparam)) (b : body_item) : list (str * cparam) :=
  upsert (b_name b)
         (fun v => {| cp_typ := Some (b_typ b); cp_doc := cp_doc v; cp_default := match b_value b with Some x => Some x | None => cp_default v end |})
         {| cp_typ := Some (b_typ b); cp_doc := None; cp_default := b_value b |} acc.

Lemma body_steps_head n v : forall bs acc, ~ In n (map b_name bs) ->
  fold_left body_step bs ((n, v) :: acc) = (n, v) :: fold_left body_step bs acc.
Proof.
  induction bs as [|b bs IH]; intros acc H; [reflexivity|]. cbn [fold_left]. rewrite <- IH by (intro K; apply H; right; exact K).
  unfold body_step at 2. cbn [upsert]. rewrite str_eqb_neq by (intro E; apply H; left; symmetry; exact E). reflexivity.
Qed.

(* what the docstring parser knows of an attribute before the body is read *)
Definition init_of (p : str * cparam) : str * cparam := (fst p, {| cp_typ := None; cp_doc := cp_doc (snd p); cp_default := None |}).

Lemma body_fold : forall ps, forallb cparam_ok ps = true -> NoDup (map fst ps) ->
  fold_left body_step (map item_of ps) (map init_of ps) = ps.
Proof.
  induction ps as [|p r IH]; intros Hok Hnd; [reflexivity|]. inversion Hnd as [|? ? Hn Hr].
  cbn [forallb] in Hok. apply andb_true_iff in Hok as [Hp Hok]. destruct (cparam_ok_parts p Hp) as [_ [_ [_ [t Ht]]]].
  cbn [map fold_left]. unfold body_step at 2. cbn [upsert init_of item_of b_name fst]. rewrite str_eqb_refl.
  rewrite body_steps_head, (IH Hok Hr) by (rewrite map_map; exact Hn). f_equal.
  destruct p as [n [ty d df]]. cbn in Ht. subst ty. destruct df; reflexivity.
Qed.

Lemma cparam_ok_entry p : cparam_ok p = true -> param_ok (doc_entry (fst p, doc_of p)) = true.
Proof.
  intro H. destruct (cparam_ok_parts p H) as [Hn [_ [[d [Ed [Hd _]]] _]]]. apply param_ok_iff. split; [exact Hn|].
  unfold doc_of. rewrite Ed. cbn. rewrite Hd. reflexivity.
Qed.

Lemma parse_crender S2 SF HP HS doc ps : blank S2 = true -> blank SF = true -> blank HP = true -> blank HS = true ->
  clean doc = true -> forallb cparam_ok ps = true -> NoDup (map fst ps) -> ps <> [] ->
  parse_rest (crender S2 SF HP HS doc (docs_of ps)) = {| p_doc := doc; p_params := map doc_entry (docs_of ps); p_ret := None |}.
Proof.
  intros B2 BF BP BS Hd Hp Hnd Hne. rewrite crender_canon.
  apply (parse_canon_text T_cvar [] S2 SF HP HS (or_intror (or_introl eq_refl)) eq_refl B2 BF BP BS);
    [exact Hd | | | reflexivity | left; apply map_ne, map_ne, Hne]; unfold docs_of; rewrite !map_map.
  - revert Hp. apply forallb_map_impl. exact cparam_ok_entry.
  - exact Hnd.
Qed.

Theorem class_roundtrip doc ps :
  clean doc = true -> one_line doc = true -> forallb cparam_ok ps = true -> NoDup (map fst ps) -> ps <> [] ->
  parse_class (emit_class doc ps) = (doc, ps).
Proof.
  intros Hd H1 Hp Hnd Hne. pose proof (proj1 (forallb_forall _ _) Hp) as Hin.
  assert (Ht : forallb typed ps = true).
  { apply forallb_forall. intros p Hp0. destruct (cparam_ok_parts p (Hin p Hp0)) as [_ [_ [_ [t Et]]]]. unfold typed. rewrite Et. reflexivity. }
  unfold parse_class. rewrite (class_body_all_typed doc ps Ht). unfold emit_class. cbn [k_doc].
  rewrite (class_docstring_is_crender doc ps Hd H1 Hp Hne).
  (* the docstring is never empty, so k_doc is Some *)
  destruct (crender C_HP [] C_HP C_HS doc (docs_of ps)) as [|c0 r0] eqn:EC; [discriminate EC|]. rewrite <- EC.
  rewrite (parse_crender C_HP [] C_HP C_HS doc ps (blank_S1 1) eq_refl (blank_S1 1) (blank_S2 1) Hd Hp Hnd Hne).
  cbn [p_doc p_params]. f_equal. unfold docs_of. rewrite !map_map.
  rewrite (map_ext_in _ init_of); [apply (body_fold ps Hp Hnd)|].
  intros p Hp0. destruct (cparam_ok_parts p (Hin p Hp0)) as [_ [_ [[d [Ed _]] _]]].
  unfold init_of, of_entry, doc_entry, doc_of. cbn [fst snd pe_doc pe_typ]. rewrite Ed. reflexivity.
Qed.
