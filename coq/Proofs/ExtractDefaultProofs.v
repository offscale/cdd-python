(* Model/ExtractDefault.v: in a description that never says "default" no announcer is found (no_announcer); the announcement written
   by set_default_doc (Model/DefaultDoc.v) is found again, the default text recovered up to the blanks and back-ticks around it
   (strip3) and the description up to the full stop the emitter adds (dotted). *)
From Coq Require Import Lia.
From CDD Require Import PyStr PyStrFacts DefaultDoc DefaultDocProofs ExtractDefault.

Definition starts (n h : str) : bool := str_eqb (fold (firstn (length n) h)) (fold n).

Lemma fold_length s : length (fold s) = length s. Proof. apply map_length. Qed.
Lemma fold_app a b : fold (a ++ b) = fold a ++ fold b. Proof. apply map_app. Qed.

Lemma starts_fold n h : starts n h = startswith (fold n) (fold h).
Proof.
  apply eq_true_iff_eq. unfold starts. rewrite str_eqb_eq, startswith_iff. split.
  - intro E. exists (fold (skipn (length n) h)). rewrite <- E, <- fold_app, firstn_skipn. reflexivity.
  - intros [r E]. apply map_eq_app in E as (w & r' & -> & E & _). fold (fold w) in E.
    pose proof (f_equal (@length _) E) as L. rewrite !fold_length in L.
    rewrite <- L, firstn_app_length. exact E.
Qed.

Lemma find_ci_unfold n h : find_ci n h = if starts n h then Some O else match h with [] => None | _ :: r => match find_ci n r with Some i => Some (S i) | None => None end end.
Proof. destruct h; reflexivity. Qed.

Lemma find_ci_none n : forall h, contains (fold n) (fold h) = false -> find_ci n h = None.
Proof.
  induction h as [|c r IH]; rewrite find_ci_unfold, starts_fold; cbn [fold map contains]; intros [-> H]%orb_false_iff; [reflexivity|].
  rewrite (IH H). reflexivity.
Qed.

Lemma find_ci_some n : forall h i, find_ci n h = Some i -> starts n (skipn i h) = true.
Proof.
  induction h as [|c r IH]; intros i H; rewrite find_ci_unfold in H.
  - destruct (starts n []) eqn:E; [injection H as <-; exact E | discriminate].
  - destruct (starts n (c :: r)) eqn:E; [injection H as <-; exact E|].
    destruct (find_ci n r) as [k|] eqn:F; [|discriminate]. injection H as <-. cbn [skipn]. apply IH. reflexivity.
Qed.

Lemma find_ci_first n : forall h x y, fold h = x ++ fold n ++ y ->
  (forall x' y', fold h = x' ++ fold n ++ y' -> (length x <= length x')%nat) -> find_ci n h = Some (length x).
Proof.
  induction h as [|c r IH]; intros [|d x] y E U; rewrite find_ci_unfold, starts_fold.
  1,3: cbn [app] in E; rewrite E, startswith_app; reflexivity.
  - discriminate E.
  - destruct (startswith _ _) eqn:S; [apply startswith_iff in S as [z S]; specialize (U [] z S); cbn in U; lia|].
    injection E as <- E. rewrite (IH x y E); [reflexivity|]. intros x' y' E'.
    apply le_S_n, (U (fold_char c :: x') y'). cbn [fold map app]. f_equal. exact E'.
Qed.

Lemma loc_within_none h : forall vs, (forall v, In v vs -> contains (fold v) (fold h) = false) -> loc_within vs h = None.
Proof.
  induction vs as [|v r IH]; intro H; [reflexivity|]. cbn [loc_within]. rewrite find_ci_none by (apply H; left; reflexivity).
  apply IH. intros x Hx. apply H. right. exact Hx.
Qed.

(* the word every announcer contains *)
Definition KW : str := Eval vm_compute in s2l "default".
Fixpoint has_kw (h : str) : bool := starts KW h || match h with [] => false | _ :: r => has_kw r end.

Lemma has_kw_fold h : has_kw h = contains KW (fold h).
Proof. induction h as [|c r IH]; cbn [has_kw fold map contains]; rewrite starts_fold, ?IH; reflexivity. Qed.
Lemma has_kw_iff h : has_kw h = true <-> exists a b, fold h = a ++ KW ++ b.
Proof. rewrite has_kw_fold. apply contains_iff. Qed.
Lemma kw_free h a b : has_kw h = false -> fold h <> a ++ KW ++ b.
Proof. intros F E. rewrite (proj2 (has_kw_iff h)) in F by eauto. discriminate. Qed.

Lemma has_kw_witness h : has_kw h = true -> exists j, starts KW (skipn j h) = true.
Proof.
  induction h as [|c r IH]; cbn [has_kw]; intro E.
  - rewrite orb_false_r in E. exists O. exact E.
  - apply orb_true_iff in E as [E|E]; [exists O; exact E | destruct (IH E) as [j Hj]; exists (S j); exact Hj].
Qed.

Lemma variants_start_with_kw : forallb (fun v => startswith KW (fold v)) VARIANTS = true.
Proof. vm_compute. reflexivity. Qed.

Lemma variant_kw pre v h a b : In v VARIANTS -> fold h = a ++ fold (pre ++ v) ++ b -> exists b', fold h = (a ++ fold pre) ++ KW ++ b'.
Proof.
  intros Hin E. pose proof variants_start_with_kw as V. rewrite forallb_forall in V. apply V, startswith_iff in Hin as [x Hx].
  exists (x ++ b). rewrite E, fold_app, Hx, <- !app_assoc. reflexivity.
Qed.

(* [pre]: "(" for the parenthesised announcers, or nothing *)
Lemma no_announcer pre line : has_kw line = false -> loc_within (map (app pre) VARIANTS) line = None.
Proof.
  intro F. apply loc_within_none. intros ? [v [<- Hv]]%in_map_iff. apply not_true_is_false. intros (a & b & E)%contains_iff.
  apply (variant_kw pre v) in E as [b' E]; [|exact Hv]. exact (kw_free _ _ _ F E).
Qed.

Definition dotted (d : str) : str := if ends_with_stop d then d else d ++ [DOT].
Definition ANN : str := Eval vm_compute in s2l " Defaults to ".
Definition ANN1 : str := Eval vm_compute in s2l "Defaults to ".

Lemma not_in_kw_sp : ~ In SP KW. Proof. vm_compute. intuition discriminate. Qed.
Lemma not_in_kw_dot : ~ In DOT KW. Proof. vm_compute. intuition discriminate. Qed.

Lemma dotted_free d : has_kw d = false -> has_kw (dotted d) = false.
Proof.
  intro F. unfold dotted. destruct (ends_with_stop d); [exact F|]. apply not_true_is_false. intros (a & b & E)%has_kw_iff.
  rewrite fold_app in E. apply (occurrence_split KW DOT _ []) in E as [(b' & E & _) | (a' & E & _)];
    [exact (kw_free _ _ _ F E) | destruct a'; discriminate E | exact not_in_kw_dot].
Qed.

Lemma kw_between x y c1 c2 m a b : has_kw x = false -> has_kw y = false -> ~ In c1 KW -> ~ In c2 KW ->
  fold x ++ c1 :: m ++ c2 :: fold y = a ++ KW ++ b -> exists a' b', m = a' ++ KW ++ b' /\ a = fold x ++ c1 :: a'.
Proof.
  intros Fx Fy H1 H2 E. apply occurrence_split in E as [(b' & E & _) | (a' & E & ->)]; [destruct (kw_free _ _ _ Fx E) | | exact H1].
  apply occurrence_split in E as [(b' & E & _) | (a'' & E & _)]; [eauto | destruct (kw_free _ _ _ Fy E) | exact H2].
Qed.

Lemma only_occurrence dd t a b : has_kw dd = false -> has_kw t = false -> fold (dd ++ ANN ++ t) = a ++ KW ++ b -> a = fold dd ++ [SP].
Proof.
  intros Fd Ft E. rewrite !fold_app in E. change (fold ANN ++ fold t) with (SP :: s2l "defaults to" ++ SP :: fold t) in E.
  apply kw_between in E as (a' & b' & E & ->); [| assumption | assumption | exact not_in_kw_sp | exact not_in_kw_sp].
  (* inside "defaults to" the word starts at offset 0 only: at offsets 1 to 4 a letter differs, and from 5 on too little text is left *)
  destruct a' as [|? [|? [|? [|? [|? a']]]]]; try discriminate E; [reflexivity|].
  apply (f_equal (@length _)) in E. rewrite !app_length in E. cbn in E. lia.
Qed.

Lemma dotted_stops d : ends_with_stop (dotted d) = true.
Proof. unfold dotted. destruct (ends_with_stop d) eqn:E; [exact E|]. unfold ends_with_stop. rewrite last_opt_snoc. reflexivity. Qed.

Definition strip3 (t : str) : str := strip_chars [SP; TABC; BTK] t.

Lemma finish_whole x c w t i j edd :
  scan_default t false = t -> ends_with_stop x = true -> i = (slen x + 1)%Z -> j = (i + slen w)%Z ->
  finish (x ++ c :: w ++ t) i j None edd = (if edd then x ++ c :: w ++ t else x, Some (strip3 t)).
Proof.
  intros K Hx -> ->. set (line := x ++ c :: w ++ t). unfold finish.
  assert (L : slen line = (slen x + 1 + slen w + slen t)%Z) by (unfold line; rewrite slen_app, slen_cons, slen_app; lia).
  rewrite (slice_from_app line (x ++ c :: w) t); [|unfold line; rewrite <- app_assoc; reflexivity | rewrite slen_app, slen_cons; lia].
  rewrite K. destruct edd; [reflexivity|].
  assert (T : forall i, i = slen x -> slice_to line i = x) by (intros i ->; apply (slice_to_app line x (c :: w ++ t)); reflexivity).
  rewrite (T (slen x + 1 - 1)%Z) by lia. unfold ends_with_stop in Hx. destruct (last_opt x) as [l|]; [|discriminate].
  replace (is_gap l) with false by (apply orb_true_iff in Hx as [E|E]; apply N.eqb_eq in E; subst l; reflexivity).
  rewrite T, !slice_from_end by lia. cbn. rewrite app_nil_r. reflexivity.
Qed.

Theorem announced_default_recovered d t edd :
  has_kw d = false -> has_kw t = false -> scan_default t false = t ->
  extract_default_text (dotted d ++ ANN ++ t) edd
  = (if edd then dotted d ++ ANN ++ t else dotted d, Some (strip3 t)).
Proof.
  (* the word occurs once in the line, behind dd and a blank (Only): that rules out the parenthesised announcers and pins the first
     variant, which loc_within tries first; K says the scan keeps t whole (no sentence-ending full stop in it) *)
  intros Fd Ft K. set (dd := dotted d). assert (Fdd : has_kw dd = false) by apply dotted_free, Fd.
  set (line := dd ++ ANN ++ t).
  assert (Only : forall a b, fold line = a ++ KW ++ b -> a = fold dd ++ [SP]) by (intros a b; apply only_occurrence; assumption).
  unfold extract_default_text.
  (* no parenthesised announcer: a blank, not "(", stands in front of the word *)
  rewrite loc_within_none.
  2:{ intros ? [v [<- Hv]]%in_map_iff. apply not_true_is_false. intros (a & b & E)%contains_iff.
      apply (variant_kw [LP] v) in E as [b' E]; [|exact Hv]. apply Only, app_inj_tail in E as [_ E]. discriminate E. }
  assert (F1 : find_ci (s2l "defaults to ") line = Some (length (fold dd ++ [SP]))).
  { apply (find_ci_first _ line _ (fold t)).
    - unfold line. rewrite !fold_app, <- app_assoc. reflexivity.
    - intros a b E. change (fold (s2l "defaults to ")) with (KW ++ s2l "s to ") in E. rewrite <- app_assoc in E. apply Only in E as ->. apply le_n. }
  change VARIANTS with (s2l "defaults to " :: tl VARIANTS). cbn [loc_within]. rewrite F1.
  rewrite app_length, fold_length. change (length (s2l "defaults to ")) with 12%nat.
  apply (finish_whole dd SP ANN1 t); [exact K | apply dotted_stops | unfold slen; cbn [length]; lia | change (slen ANN1) with 12%Z; lia].
Qed.

Lemma contains_kw w r h : fold w = KW ++ r -> contains w h = true -> has_kw h = true.
Proof. intros W (a & b & ->)%contains_iff. apply has_kw_iff. exists (fold a), (r ++ fold b). rewrite !fold_app, W, <- app_assoc. reflexivity. Qed.

Lemma no_kw_no_defaults d : has_kw d = false -> has_defaults d = false.
Proof.
  intro F. apply orb_false_iff. split; apply not_true_is_false; intro E.
  - rewrite (contains_kw (s2l "Defaults") (s2l "s") d eq_refl E) in F. discriminate.
  - rewrite (contains_kw (s2l "defaults") (s2l "s") d eq_refl E) in F. discriminate.
Qed.

Lemma announced strip d t : has_kw d = false -> set_default_doc strip d (Some t) true = dotted d ++ ANN ++ t.
Proof. intro F. exact (set_default_doc_once strip d t (no_kw_no_defaults d F)). Qed.

Theorem default_text_roundtrip strip d t :
  has_kw d = false -> has_kw t = false -> scan_default t false = t ->
  extract_default_text (set_default_doc strip d (Some t) true) false = (dotted d, Some (strip3 t))
  /\ extract_default_text (set_default_doc strip d (Some t) true) true = (set_default_doc strip d (Some t) true, Some (strip3 t)).
Proof.
  intros Fd Ft K. rewrite (announced strip d t Fd).
  split; [apply (announced_default_recovered d t false Fd Ft K) | apply (announced_default_recovered d t true Fd Ft K)].
Qed.
