From CDD Require Import PyStr DefaultDoc Quote SetValue.

Theorem set_value_strips s : (2 < length s)%nat -> wears_quotes s = true -> set_value_text s = removelast (tl s).
Proof.
  intros H W. unfold set_value_text. rewrite W, (proj2 (Nat.ltb_lt 2 _) H). reflexivity.
Qed.

Example set_value_examples :
  set_value_text (s2l "''") = s2l "''" /\ set_value_text [DQ; DQ] = [DQ; DQ] /\ set_value_text (s2l "'") = s2l "'"
  /\ set_value_text (s2l "NULL") = s2l "NULL" /\ unquote (s2l "''") = [].
Proof. repeat split. Qed.

(* outside the domain of C13_eval_member_kept: a member that is itself written in quotes loses them *)
Example set_value_refuted : set_value_text (s2l "'ab'") = s2l "ab" /\ wears_quotes (s2l "'ab'") = true.
Proof. split; vm_compute; reflexivity. Qed.
