From CDD Require Import PyStr PyStrFacts NameSan.

Lemma lstrip_star_no_leading s : no_leading_star (lstrip_chars [STAR] s) = true.
Proof.
  rewrite lstrip_chars_dropwhile. pose proof (dropwhile_head (among [STAR]) s) as H.
  destruct (dropwhile _ s) as [|c r]; [reflexivity|]. apply orb_false_iff in H as [H _].
  unfold no_leading_star. cbn [startswith]. rewrite N.eqb_sym. unfold ceq in H. rewrite H. reflexivity.
Qed.

Theorem sanitise_no_leading_star name : no_leading_star (sanitise_name name) = true.
Proof.
  unfold sanitise_name.
  destruct (endswith s_kwargs name || startswith [STAR; STAR] name) eqn:E1.
  - apply lstrip_star_no_leading.
  - apply orb_false_iff in E1 as [_ E2].
    destruct (startswith [STAR] name) eqn:E3.
    + destruct name as [|a rest]; [cbn in E3; discriminate|]. cbn [skipn].
      cbn [startswith] in E2, E3. rewrite andb_true_r in E3. rewrite E3 in E2. cbn [andb] in E2.
      unfold no_leading_star.
      cbn [startswith] in *. rewrite E2. reflexivity.
    + unfold no_leading_star. rewrite E3. reflexivity.
Qed.
