(* Model/StyleDetect.v: a text that holds a ReST token anywhere is detected as ReST (token_detected), so the canonical text of the
   ReST round trip is (render_is_rest). *)
From CDD Require Import PyStr PyStrFacts RestDoc StyleDetect RestDocProofs.

Lemma contains_mid p a b : contains p (a ++ p ++ b) = true.
Proof. apply contains_at. Qed.

Lemma token_detected t X : In t all_tokens -> contains t X = true -> derive_format X = Rest.
Proof.
  intros Hin Hc. unfold derive_format.
  assert (E : existsb (fun t0 => contains t0 X) all_tokens = true) by (apply existsb_exists; exists t; split; assumption).
  rewrite E. reflexivity.
Qed.

Theorem render_is_rest doc ps ret :
  forallb param_ok ps = true -> ret_ok ret = true -> (ps <> [] \/ ret <> None) ->
  derive_format (render doc ps ret) = Rest.
Proof.
  intros Hp Hr Hne. rewrite render_canon. unfold canon_text.
  pose proof (canon_lines_ok T_param [NL] [NL; NL] [NL] (or_introl eq_refl) eq_refl eq_refl eq_refl ps ret Hp Hr) as HL.
  pose proof (canon_lines_nonempty T_param [NL] [NL; NL] [NL] ps ret Hp Hr Hne) as HN.
  destruct (canon_lines T_param [NL] [NL; NL] [NL] ps ret) as [|[t b] L]; [contradiction|].
  inversion HL as [|? ? [Ht _] _]. cbn [fst] in Ht.
  apply (token_detected t); [exact Ht|]. cbn [map concat]. unfold cat at 1. cbn [fst snd].
  rewrite <- (app_assoc t). apply contains_at.
Qed.

(* prose alone decides too: a Google token in a description without ReST token makes it Google *)
Example style_examples :
  derive_format (s2l "Just prose.") = Numpydoc /\ derive_format (s2l "Args: are described below") = Google
  /\ derive_format (s2l "See :param x: above. Args: too") = Rest.
Proof. repeat split. Qed.
