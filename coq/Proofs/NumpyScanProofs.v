From CDD Require Import PyStr PyStrFacts RestDocProofs RestDocIndentProofs GoogleLine GoogleLineProofs GoogleScan
  NumpyLine NumpyLineProofs NumpyScan SectionProofs.
Open Scope N_scope.

Definition DASH : char := 45.

(* The token is split at a character the header lacks, the first "-" of the rule: NPARAMS is "Parameters" ++ [NL], "-" and nine more by
   evaluation, and numpy_scan_head / numpy_ir_doc are scan_head / ir_doc at NPARAMS and NRETURNS by conversion. *)
Theorem numpy_head_general (pre hd sep rest : str) :
  blank pre = true -> head_ok hd = true -> head_ok (rev hd) = true -> lacks DASH hd = true -> blank sep = true ->
  numpy_scan_head (pre ++ hd ++ sep ++ NPARAMS ++ rest) = (hd, Some (skipn 1 rest)) /\ numpy_ir_doc (pre ++ hd ++ sep ++ NPARAMS ++ rest) = hd.
Proof. exact (scan_head_general DASH (s2l "Parameters" ++ [NL]) (s2l "---------") NRETURNS pre hd sep rest eq_refl eq_refl). Qed.

(* a description, if there is one, is not empty: TAB4 ++ [] is a blank line, and a blank line ends the unit *)
Definition nentry_ok1 (e : nentry) : bool :=
  let '(n, t, d) := e in
  nentry_ok e && one_line n && one_line t && match d with Some x => one_line x && negb (Nat.eqb (length x) 0) | None => true end.

Lemma nentry_ok1_spec n t d : nentry_ok1 (n, t, d) = true <->
  nentry_ok (n, t, d) = true /\ one_line n = true /\ one_line t = true
  /\ match d with Some x => one_line x = true /\ x <> [] | None => True end.
Proof.
  unfold nentry_ok1. split.
  - intros [[[He Hn]%andb_prop Ht]%andb_prop Hd]%andb_prop. repeat split; try assumption.
    destruct d as [x|]; [|exact I]. apply andb_prop in Hd as [Hx Hl]. split; [exact Hx | intros ->; discriminate].
  - intros (-> & -> & -> & Hd). destruct d as [[|x0 x]|]; [destruct Hd as [_ []]; reflexivity | destruct Hd as [-> _]; reflexivity | reflexivity].
Qed.

Lemma nentry_ok1_ok e : nentry_ok1 e = true -> nentry_ok e = true.
Proof. destruct e as [[n t] d]. intros [H _]%nentry_ok1_spec. exact H. Qed.

Lemma emit_nentry_unit e : nentry_ok1 e = true -> unit_ok 0 (emit_nentry e) /\ Forall (fun l => one_line l = true) (emit_nentry e).
Proof.
  destruct e as [[n t] d]. intros ((N1 & _)%nentry_ok_spec & Hn & Ht & Hd)%nentry_ok1_spec.
  unfold emit_nentry, emit_numpy_param. cbn [app].
  assert (F : one_line (n ++ [SP; GCOLON; SP] ++ t) = true) by (rewrite !one_line_app, Hn, Ht; reflexivity).
  assert (U : forall more, Forall (fun m => (0 < indent_of m)%nat) more -> unit_ok 0 ((n ++ [SP; GCOLON; SP] ++ t) :: more)).
  { intros more Hm. destruct n as [|c n']; [discriminate|]. split; [discriminate | split; [|exact Hm]].
    cbn. rewrite (head_ok_not_space c n' N1). reflexivity. }
  destruct d as [[|x0 x]|].
  - destruct Hd as [_ []]. reflexivity.
  - split; [apply U; constructor; [exact (Nat.lt_0_succ _) | constructor] | constructor; [exact F | constructor; [apply Hd | constructor]]].
  - split; [apply U; constructor | constructor; [exact F | constructor]].
Qed.

Theorem numpy_docstring_read (trail : bool) (pre hd sep : str) (es : list nentry) :
  blank pre = true -> head_ok hd = true -> head_ok (rev hd) = true -> lacks DASH hd = true -> blank sep = true ->
  es <> [] -> forallb nentry_ok1 es = true ->
  numpy_docstring (pre ++ hd ++ sep ++ NPARAMS ++ [NL] ++ join [NL] (concat (map emit_nentry es)) ++ if trail then [NL] else [])
  = (hd, map read_nentry es).
Proof.
  intros BP H1 H2 HC B Hne Hes. apply forallb_Forall in Hes. unfold numpy_docstring.
  destruct (numpy_head_general pre hd sep ([NL] ++ join [NL] (concat (map emit_nentry es)) ++ if trail then [NL] else []) BP H1 H2 HC B) as [-> ->].
  cbn [app skipn]. f_equal. rewrite (section_units_join 0 _ trail).
  - apply numpy_params_roundtrip, forallb_Forall. exact (Forall_impl _ nentry_ok1_ok Hes).
  - destruct es; [contradiction | discriminate].
  - apply Forall_map. exact (Forall_impl _ emit_nentry_unit Hes).
Qed.

Example numpy_docstring_example :
  numpy_docstring ([NL] ++ s2l "Load the dataset." ++ [NL; NL] ++ s2l "Parameters" ++ [NL] ++ s2l "----------" ++ [NL]
                   ++ s2l "name : str" ++ [NL] ++ s2l "    dataset to load" ++ [NL] ++ s2l "batch_size : int")
  = (s2l "Load the dataset.", [(s2l "name", Some (s2l "str"), Some (s2l "dataset to load")); (s2l "batch_size", Some (s2l "int"), Some [])]).
Proof. vm_compute. reflexivity. Qed.
