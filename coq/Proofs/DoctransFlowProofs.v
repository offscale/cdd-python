From Coq Require Import Lia.
From CDD Require Import PyStr PyStrFacts Doctrans DoctransProofs DoctransFlow.

Lemma others_app a b : others (a ++ b) = others a ++ others b.
Proof. unfold others. rewrite filter_app, map_app. reflexivity. Qed.

Lemma others_cons_not_other c l : other c = false -> others (c :: l) = others l.
Proof. unfold others. cbn [filter]. intros ->. reflexivity. Qed.

Lemma others_skip : forall l n c, nth_error l n = Some c -> other c = false -> others (skipn n l) = others (skipn (S n) l).
Proof.
  induction l as [|x l IH]; intros [|n] c H O; try discriminate; [injection H as ->; apply others_cons_not_other, O | exact (IH n c H O)].
Qed.
Lemma others_insert l n c : other c = false -> others (firstn n l ++ c :: skipn n l) = others l.
Proof. intro O. rewrite others_app, (others_cons_not_other c _ O), <- others_app, firstn_skipn. reflexivity. Qed.
Lemma others_delete l n c : nth_error l n = Some c -> other c = false -> others (firstn n l ++ skipn (S n) l) = others l.
Proof. intros H O. rewrite others_app, <- (others_skip l n c H O), <- others_app, firstn_skipn. reflexivity. Qed.
Lemma others_replace l n c c' : nth_error l n = Some c -> other c = false -> other c' = false ->
  others (firstn n l ++ c' :: skipn (S n) l) = others l.
Proof. intros H O O'. rewrite others_app, (others_cons_not_other c' _ O'), <- others_app. exact (others_delete l n c H O). Qed.

Lemma doc_edit_removes new v b : match doc_edit new v b with EDeleteAfter | EReplaceAfter _ => b = true | _ => True end.
Proof. unfold doc_edit. destruct new, b; try exact I; try reflexivity. destruct (str_eqb _ _); [exact I | reflexivity]. Qed.

Lemma docnode_at (l : list knode) n : is_docnode (nth n l no_node) = true -> nth_error l n = Some (nth n l no_node) /\ other (nth n l no_node) = false.
Proof.
  intro D. split; [|unfold other; rewrite D; apply andb_false_r]. apply nth_error_nth'.
  destruct (le_lt_dec (length l) n) as [H|H]; [rewrite nth_overflow in D by exact H; discriminate | exact H].
Qed.

Lemma edit_nodes_others i new_doc l : others (edit_nodes i new_doc l) = others l.
Proof.
  unfold edit_nodes. set (after := nth (S i) l no_node). pose proof (doc_edit_removes new_doc (k_text after) (is_docnode after)) as R.
  destruct (doc_edit new_doc (k_text after) (is_docnode after)) as [|v| |v].
  - reflexivity.
  - apply others_insert. reflexivity.
  - destruct (docnode_at l (S i) R) as [N O]. exact (others_delete l (S i) after N O).
  - destruct (docnode_at l (S i) R) as [N O]. exact (others_replace l (S i) after (doc_node after v) N O eq_refl).
Qed.

Lemma edit_nodes_keeps_header i new_doc l : (i < length l)%nat -> nth_error (edit_nodes i new_doc l) i = nth_error l i.
Proof.
  intro H. unfold edit_nodes. destruct (doc_edit new_doc _ _); try reflexivity;
    (rewrite nth_error_app1 by (rewrite firstn_length; lia); apply nth_error_firstn; lia).
Qed.

Lemma rewrite_header_others i h l c : nth_error l i = Some c -> is_header c = true -> others (rewrite_header i h l) = others l.
Proof.
  intros Hn Hh. unfold rewrite_header. rewrite Hn. assert (NO : other c = false) by (unfold other; rewrite Hh; reflexivity).
  exact (others_replace l i c (set_text c _) Hn NO NO).
Qed.

Definition header_kind (k : str) : bool := str_eqb k K_FUNC || str_eqb k K_CLASS.

Lemma find_cst_header l d i : header_kind (d_kind d) = true ->
  find_cst (map as_cnode l) (d_lineno d) (d_kind d) (d_name d) = Some i ->
  exists c, nth_error l i = Some c /\ is_header c = true.
Proof.
  intros Hk H. destruct (find_cst_from_spec _ O _ _ _ _ H) as (j & cn & -> & Hn & Hm & _). cbn [Nat.add].
  rewrite nth_error_map in Hn. destruct (nth_error l j) as [c|] eqn:E; [|discriminate]. injection Hn as <-.
  exists c. split; [reflexivity|]. unfold cst_matches in Hm. cbn [as_cnode c_kind] in Hm.
  apply andb_true_iff in Hm as [Hm _]. apply andb_true_iff in Hm as [_ Hm]. apply str_eqb_eq in Hm.
  unfold is_header. rewrite Hm. exact Hk.
Qed.

Theorem step_others l d : header_kind (d_kind d) = true -> others (step l d) = others l.
Proof.
  intro Hk. unfold step. destruct (find_cst _ _ _ _) as [i|] eqn:F; [|reflexivity].
  destruct (find_cst_header l d i Hk F) as [c [Hn Hh]].
  assert (Hl : (i < length l)%nat) by (apply nth_error_Some; rewrite Hn; discriminate).
  rewrite (rewrite_header_others i (d_header d) (edit_nodes i (d_doc d) l) c); [apply edit_nodes_others | | exact Hh].
  rewrite edit_nodes_keeps_header by exact Hl. exact Hn.
Qed.
