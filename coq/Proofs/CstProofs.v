(* Model/Cst.v: the scanner loses no character, for any alphabet and any behaviour of its lexical predicates; the nodes the parser makes
   of the scanned texts record them, and their line ranges tile the source. *)
From Coq Require Import Lia.
From CDD Require Import PyStr PyStrFacts Cst.

Section Scanner.
  Variable C : Type.
  Variable is_nl : C -> bool.
  Variable is_comment has_triple is_other cut_here : list C -> bool.
  Local Notation split_other := (Cst.split_other C cut_here).
  Local Notation cst_scan := (Cst.cst_scan C is_comment has_triple is_other cut_here).
  Local Notation scanner_loop := (Cst.scanner_loop C is_nl is_comment has_triple is_other cut_here).

  Lemma split_other_concat : forall stmt expr acc,
    concat (split_other expr stmt acc) = concat acc ++ expr ++ stmt.
  Proof.
    induction stmt as [|c rest IH]; intros expr acc; cbn [Cst.split_other].
    - destruct expr; rewrite ?concat_snoc, ?app_nil_r; reflexivity.
    - destruct (cut_here (expr ++ [c])); rewrite IH, ?concat_snoc, <- ?app_assoc; reflexivity.
  Qed.

  Lemma cst_scan_concat : forall scanned stack sc st,
    cst_scan scanned stack = (sc, st) -> concat sc ++ st = concat scanned ++ stack.
  Proof.
    unfold Cst.cst_scan; intros scanned stack sc st H.
    destruct (is_comment stack), (is_other stack), (has_triple stack); injection H as <- <-;
      rewrite ?split_other_concat, ?concat_snoc, ?app_nil_r; reflexivity.
  Qed.

  Lemma loop_concat : forall src scanned stack,
    concat (scanner_loop src scanned stack) = concat scanned ++ stack ++ src.
  Proof.
    induction src as [|c rest IH]; intros scanned stack; cbn [Cst.scanner_loop].
    - destruct (cst_scan scanned stack) as [sc st] eqn:E. apply cst_scan_concat in E.
      rewrite app_nil_r, <- E. destruct st; rewrite ?concat_snoc, ?app_nil_r; reflexivity.
    - destruct (is_nl c).
      + destruct (cst_scan scanned stack) as [sc st] eqn:E. apply cst_scan_concat in E.
        rewrite IH, <- app_assoc. cbn. rewrite app_assoc, E, <- app_assoc. reflexivity.
      + rewrite IH, <- app_assoc. reflexivity.
  Qed.

  Theorem cst_scanner_gen_lossless : forall src,
    concat (cst_scanner_gen C is_nl is_comment has_triple is_other cut_here src) = src.
  Proof. intro src. unfold cst_scanner_gen. rewrite loop_concat. reflexivity. Qed.

  Lemma split_other_nonempty : forall stmt expr acc,
    Forall (fun x => x <> []) acc -> Forall (fun x => x <> []) (split_other expr stmt acc).
  Proof.
    induction stmt as [|c rest IH]; intros expr acc H; cbn [Cst.split_other].
    - destruct expr; [exact H|]. apply Forall_app; split; [exact H|]. constructor; [discriminate|constructor].
    - destruct (cut_here (expr ++ [c])); apply IH; [|exact H].
      apply Forall_app; split; [exact H|]. constructor; [|constructor].
      destruct expr; discriminate.
  Qed.
End Scanner.

Lemma parse_one_node_fields : forall acc prev s,
  let n := parse_one_node acc prev s in
  n_start n = acc /\ n_end n = (acc + Z.of_nat (count_char NL s))%Z /\ n_value n = s.
Proof.
  intros acc prev s. unfold parse_one_node. destruct (orb _ _); [cbn; auto|]. destruct (words_of _); [cbn; auto|].
  destruct (Nat.ltb 1 _); [destruct (get_construct_name _)|]; cbn; auto.
Qed.

Lemma parser_values_aux : forall scanned acc prev,
  map n_value (cst_parser_aux acc prev scanned) = scanned.
Proof.
  induction scanned as [|s r IH]; intros acc prev; cbn [cst_parser_aux map]; [reflexivity|].
  rewrite IH. f_equal. apply parse_one_node_fields.
Qed.

Theorem cst_parse_lossless (src : str) : concat (map n_value (cst_parse src)) = src.
Proof. unfold cst_parse, cst_parser. rewrite parser_values_aux. apply cst_scanner_gen_lossless. Qed.

Fixpoint chain (a : Z) (l : list node) : Prop :=
  match l with
  | [] => True
  | n :: r => n_start n = a /\ chain (n_end n) r
  end.
Definition spans (n : node) : Prop :=
  (n_end n - n_start n)%Z = Z.of_nat (count_char NL (n_value n)).

Lemma parser_tiling_aux : forall scanned acc prev,
  chain acc (cst_parser_aux acc prev scanned) /\ Forall spans (cst_parser_aux acc prev scanned).
Proof.
  induction scanned as [|s r IH]; intros acc prev; cbn [cst_parser_aux chain]; [split; [exact I|constructor]|].
  destruct (parse_one_node_fields acc prev s) as (Hs & He & Hv).
  specialize (IH (n_end (parse_one_node acc prev s)) (n_kind (parse_one_node acc prev s))).
  destruct IH as [IH1 IH2]. split; [split; [exact Hs|exact IH1]|].
  constructor; [|exact IH2]. unfold spans. rewrite Hv. lia.
Qed.

Fixpoint last_end (a : Z) (l : list node) : Z :=
  match l with [] => a | n :: r => last_end (n_end n) r end.

Lemma parser_last_end_aux : forall scanned acc prev,
  last_end acc (cst_parser_aux acc prev scanned) = (acc + Z.of_nat (count_char NL (concat scanned)))%Z.
Proof.
  induction scanned as [|s r IH]; intros acc prev; cbn [cst_parser_aux last_end concat].
  - cbn. lia.
  - rewrite IH. destruct (parse_one_node_fields acc prev s) as (_ & He & _). rewrite count_char_app. lia.
Qed.
