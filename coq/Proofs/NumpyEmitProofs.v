From CDD Require Import PyStr PyStrFacts RestDocProofs GoogleLine GoogleLineProofs NumpyLine NumpyLineProofs NumpyScan NumpyScanProofs NumpyEmit SectionProofs.
Open Scope N_scope.

Definition ends_visible (e : nentry) : bool :=
  let '(n, t, d) := e in match d with Some x => tail_ok x | None => tail_ok t end.

Definition as_entry (e : nentry) : str * option str * option str := let '(n, t, d) := e in (n, Some t, d).

Lemma entry_lines_visible e : ends_visible e = true -> tail_ok (join [NL] (emit_nentry e)) = true.
Proof.
  destruct e as [[n t] d]. unfold ends_visible, emit_nentry, emit_numpy_param. intro He. destruct d as [x|]; cbn [app].
  - apply (tail_ok_join_snoc [NL] [n ++ [SP; GCOLON; SP] ++ t] (TAB4 ++ x)), tail_ok_app_r, He.
  - apply tail_ok_app_r, (tail_ok_app_r [SP; GCOLON; SP]), He.
Qed.

Theorem emit_numpy_text_gen doc es e : head_ok doc = true -> tail_ok doc = true -> ends_visible e = true ->
  emit_numpy doc (map as_entry (es ++ [e])) = doc ++ [NL; NL] ++ NPARAMS ++ [NL] ++ join [NL] (concat (map emit_nentry (es ++ [e]))) ++ [NL].
Proof.
  intros D1 D2 Ve.
  (* emit_numpy IS RestDocProofs.doc_frame without post-processing, by conversion *)
  change (emit_numpy doc (map as_entry (es ++ [e]))) with (doc_frame (fun x => x) doc (numpy_args (map as_entry (es ++ [e])))).
  unfold numpy_args. rewrite match_nonempty by (destruct es; discriminate).
  rewrite map_map. replace (map _ (es ++ [e])) with (map (fun e => join [NL] (emit_nentry e)) (es ++ [e])) by (apply map_ext; intros [[? ?] ?]; reflexivity).
  (* every entry writes at least its first line *)
  rewrite <- (join_concat [NL] (map emit_nentry (es ++ [e]))), map_map
    by (apply Forall_map, Forall_forall; intros [[n t] [x|]] _; discriminate).
  rewrite map_app. exact (frame_section doc NPARAMS _ _ D1 D2 eq_refl (entry_lines_visible e Ve)).
Qed.

Theorem emit_numpy_text doc es : clean doc = true -> es <> [] -> forallb nentry_ok1 es = true -> forallb ends_visible es = true ->
  emit_numpy doc (map as_entry es) = doc ++ [NL; NL] ++ NPARAMS ++ [NL] ++ join [NL] (concat (map emit_nentry es)) ++ [NL].
Proof.
  (* the third hypothesis is not needed; it stands in C01_numpy_emit_text, which this proves *)
  intros Hd Hne _ V. destruct (proj1 (clean_iff doc) Hd) as [D1 [D2 _]]. destruct (exists_last Hne) as [es' [e ->]].
  rewrite forallb_forall in V. apply (emit_numpy_text_gen doc es' e D1 D2), V, in_or_app. right. left. reflexivity.
Qed.

Theorem numpy_emit_parse_roundtrip doc es :
  clean doc = true -> lacks DASH doc = true -> es <> [] -> forallb nentry_ok1 es = true -> forallb ends_visible es = true ->
  numpy_docstring (emit_numpy doc (map as_entry es)) = (doc, map read_nentry es).
Proof.
  intros Hd HD Hne H V. rewrite (emit_numpy_text doc es Hd Hne H V). destruct (proj1 (clean_iff doc) Hd) as [D1 [D2 _]].
  exact (numpy_docstring_read true [] doc [NL; NL] es eq_refl D1 D2 HD eq_refl Hne H).
Qed.

Example numpy_emit_example :
  emit_numpy (s2l "Load the dataset.") [(s2l "name", Some (s2l "str"), Some (s2l "dataset to load")); (s2l "batch_size", Some (s2l "int"), None)]
  = s2l "Load the dataset." ++ [NL; NL] ++ s2l "Parameters" ++ [NL] ++ s2l "----------" ++ [NL] ++ s2l "name : str" ++ [NL] ++ s2l "    dataset to load"
    ++ [NL] ++ s2l "batch_size : int" ++ [NL].
Proof. vm_compute. reflexivity. Qed.
