From Coq Require Import Lia.
From CDD Require Import PyStr DocSplit.

Definition line_start (doc : str) (p : nat) : Prop :=
  p = O \/ nth_error doc (p - 1) = Some NL.

(* invariant of the scan: pre0 (empty or ending in a line break), then the open line *)
Lemma scan_line_start doc : forall rest pre0 stack_rev,
  doc = pre0 ++ rev stack_rev ++ rest ->
  (pre0 = [] \/ exists q, pre0 = q ++ [NL]) ->
  scan doc rest (length pre0 + length stack_rev) stack_rev = (-1)%Z
  \/ exists p, scan doc rest (length pre0 + length stack_rev) stack_rev = Z.of_nat p /\ (p <= length doc)%nat /\ line_start doc p.
Proof.
  induction rest as [|c r IH]; intros pre0 st Hdoc Hpre; cbn [scan]; [left; reflexivity|].
  destruct (N.eqb_spec c NL) as [->|_].
  - destruct (triggers doc _ (rev st)).
    + right. exists (length pre0). split; [lia|]. subst doc. split; [rewrite app_length; lia|].
      destruct Hpre as [->|[q ->]]; [left; reflexivity | right].
      rewrite app_length, Nat.add_sub, <- app_assoc, nth_error_app2, Nat.sub_diag by lia. reflexivity.
    + replace (S (length pre0 + length st)) with (length (pre0 ++ rev st ++ [NL]) + @length char [])%nat
        by (rewrite !app_length, rev_length; cbn; lia).
      apply IH; [subst doc; rewrite <- !app_assoc; reflexivity | right; exists (pre0 ++ rev st); apply app_assoc].
  - rewrite plus_n_Sm. apply (IH pre0 (c :: st)); [subst doc; cbn [rev]; rewrite <- !app_assoc; reflexivity | exact Hpre].
Qed.
