(* Model/ForceDefaults.v: on a list whose defaults form a suffix the forcing invents nothing. *)
From CDD Require Import PyStr ForceDefaults.

Section P.
Variable D : Type.
Notation param := (option str * option D)%type.

Definition has (p : param) : bool := match snd p with Some _ => true | None => false end.
(* no parameter without default after one with a default *)
Fixpoint suffix_shaped (seen : bool) (ps : list param) : bool :=
  match ps with [] => true | p :: r => (negb seen || has p) && suffix_shaped (seen || has p) r end.

Definition own (p : param) : option (forced D) := option_map (FOwn D) (snd p).

(* whatever the flag: once it is set every later parameter has a default of its own, so none is invented *)
Theorem shaped_defaults_are_kept : forall ps b, suffix_shaped b ps = true -> force_future D b ps = map own ps.
Proof.
  induction ps as [|p r IH]; intros b H; [reflexivity|]. cbn [suffix_shaped] in H. apply andb_prop in H as [Hp Hr].
  cbn [force_future map]. unfold interpolate, own, has in *. destruct (snd p) as [d|]; cbn [option_map].
  - f_equal. apply IH, Hr.
  - rewrite orb_false_r in Hp, Hr. apply negb_true_iff in Hp. subst b. f_equal. apply IH, Hr.
Qed.

(* the shape in which every list comes out; only defined here: its theorem is C01_defaults_come_out_as_a_suffix *)
Definition has_out (x : option (forced D)) : bool := match x with Some _ => true | None => false end.
Fixpoint out_shaped (seen : bool) (l : list (option (forced D))) : bool :=
  match l with [] => true | x :: r => (negb seen || has_out x) && out_shaped (seen || has_out x) r end.
End P.

Example force_example :
  force_future N false [(Some (s2l "int"), None); (Some (s2l "str"), Some 7%N); (Some (s2l "int"), None); (Some (s2l "List[str]"), None)]
  = [None; Some (FOwn N 7%N); Some (FZero N (s2l "int")); Some (FNoneStr N)].
Proof. vm_compute. reflexivity. Qed.
