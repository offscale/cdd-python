From Coq Require Import Lia.
From CDD Require Import PyStr Rewrite.

Lemma list_set_length {A} (l : list A) i v : length (list_set l i v) = length l.
Proof.
  unfold list_set. set (n := Z.of_nat (length l)). set (j := if (i <? 0)%Z then (n + i)%Z else i).
  destruct ((j <? 0)%Z || (n <=? j)%Z) eqn:E; [reflexivity|].
  apply orb_false_iff in E as [E1 E2].
  rewrite app_length. cbn [length]. rewrite firstn_length, skipn_length. unfold n in *. lia.
Qed.

Lemma replace_arg_spec loc search new : forall args args' b,
  replace_arg loc search new args = (args', b) ->
  (b = false /\ args' = args) \/
  (b = true /\ exists pre a post, args = pre ++ a :: post /\ args' = pre ++ new :: post /\
                                   strs_eqb (loc ++ [a_name a]) search = true).
Proof.
  induction args as [|a r IH]; intros args' b H; cbn in H.
  - injection H as <- <-. left. split; reflexivity.
  - destruct (strs_eqb (loc ++ [a_name a]) search) eqn:E.
    + injection H as <- <-. right. split; [reflexivity|]. exists [], a, r. repeat split. exact E.
    + destruct (replace_arg loc search new r) as [r' b'] eqn:Er. injection H as <- <-.
      destruct (IH r' b' eq_refl) as [[-> ->]|[-> [pre [x [post [-> [-> Hx]]]]]]].
      * left. split; reflexivity.
      * right. split; [reflexivity|]. exists (a :: pre), x, post. repeat split. exact Hx.
Qed.

Lemma replace_arg_length loc search new args args' b :
  replace_arg loc search new args = (args', b) -> length args' = length args.
Proof.
  intro H. destruct (replace_arg_spec loc search new args args' b H) as [[_ ->]|[_ [pre [a [post [-> [-> _]]]]]]]; [reflexivity|].
  rewrite !app_length. reflexivity.
Qed.

Lemma visit_func_spec search r loc args kwonly defaults a' k' d' b :
  visit_func search r loc args kwonly defaults = (a', k', d', b) ->
  length a' = length args /\ length k' = length kwonly /\
  (d' = defaults \/ exists t an v idx, r = RAnn t an (Some v) /\ idx_of t args (start_idx args) = Some idx /\ d' = list_set defaults idx v).
Proof.
  unfold visit_func. set (dd := match r with RAnn t _ (Some v) => _ | _ => defaults end).
  assert (Hd : dd = defaults \/ exists t an v idx, r = RAnn t an (Some v) /\ idx_of t args (start_idx args) = Some idx /\ dd = list_set defaults idx v).
  { unfold dd. destruct r as [x|t an [v|]]; auto. destruct (idx_of t args (start_idx args)) as [idx|] eqn:E; auto.
    destruct (_ >? _)%Z; auto. right. exists t, an, v, idx. auto. }
  destruct (replace_arg loc search (repl_as_arg r) args) as [args1 b1] eqn:E1, (replace_arg loc search (repl_as_arg r) kwonly) as [kw1 b2] eqn:E2.
  apply replace_arg_length in E1, E2. destruct b1; intro H; injection H as <- <- <- _; auto.
Qed.

Theorem visit_func_alignment search r loc args kwonly defaults a' k' d' b :
  visit_func search r loc args kwonly defaults = (a', k', d', b) ->
  length a' = length args /\ length k' = length kwonly /\ length d' = length defaults.
Proof.
  intros (Ha & Hk & [->|(t & an & v & idx & _ & _ & ->)])%visit_func_spec; repeat split; try assumption. apply list_set_length.
Qed.

Lemma map_const_length {A B} (c : B) (l1 l2 : list A) : length l1 = length l2 -> map (fun _ => c) l1 = map (fun _ => c) l2.
Proof.
  revert l2; induction l1 as [|x l1 IH]; intros [|y l2] H; cbn in *; try discriminate; [reflexivity|].
  f_equal. apply IH. lia.
Qed.

Lemma visit_shape : forall fuel search r parent replaced nodes nodes' b,
  visit fuel search r parent replaced nodes = Some (nodes', b) -> map shape nodes' = map shape nodes.
Proof.
  induction fuel as [|f IH]; intros search r parent replaced nodes nodes' b H; [discriminate|].
  cbn [visit] in H. destruct nodes as [|n rest]; [injection H as <- _; reflexivity|].
  (* every branch ends by visiting the rest and putting a node n' in front of the result: n' has the shape of n *)
  assert (K : forall n' b0, shape n' = shape n ->
            match visit f search r parent b0 rest with Some (rest', b') => Some (n' :: rest', b') | None => None end = Some (nodes', b) ->
            map shape nodes' = map shape (n :: rest)).
  { intros n' b0 E K. destruct (visit f search r parent b0 rest) as [[rest' b']|] eqn:Er; [|discriminate].
    injection K as <- _. cbn [map]. rewrite E, (IH _ _ _ _ _ _ _ Er). reflexivity. }
  destruct n as [name body|name args kwonly defaults bid|target ann value|target value|i].
  3,4: destruct (negb replaced && _); [|exact (K _ _ eq_refl H)]; destruct r as [a|t an v]; [discriminate | exact (K (NAnn t an v) true eq_refl H)].
  - destruct (negb replaced && _); [discriminate|].
    destruct (visit f search r [name] replaced body) as [[body' b1]|] eqn:Eb; [|discriminate].
    apply K in H; [exact H|]. cbn [shape]. rewrite (IH _ _ _ _ _ _ _ Eb). reflexivity.
  - destruct (negb replaced && _); [|exact (K _ _ eq_refl H)].
    destruct (visit_func search r (parent ++ [name]) args kwonly defaults) as [[[a' k'] d'] b1] eqn:Ev.
    apply K in H; [exact H|]. destruct (visit_func_alignment _ _ _ _ _ _ _ _ _ _ Ev) as [Ha [Hk Hd]]. cbn [shape].
    rewrite (map_const_length (mkArg [] None) a' args Ha), (map_const_length (mkArg [] None) k' kwonly Hk),
            (map_const_length [] d' defaults Hd). reflexivity.
  - exact (K _ _ eq_refl H).
Qed.
