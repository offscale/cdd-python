(* What str.strip() returns -- so the names the Google and NumPy unit readers return -- carries no blank at either end. *)
From CDD Require Import PyStr PyStrFacts.
Open Scope N_scope.

Definition stripped (s : str) : Prop := lstrip s = s /\ rstrip s = s.

Lemma lstrip_is_stripped_left s : lstrip (lstrip s) = lstrip s.
Proof. apply lstrip_idem. Qed.

Theorem strip_is_stripped s : stripped (strip s).
Proof.
  unfold stripped, strip. split.
  - apply lstrip_rstrip. apply lstrip_idem.
  - apply rstrip_idem.
Qed.
