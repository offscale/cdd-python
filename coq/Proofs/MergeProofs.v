(* Model/Merge.v: merge_params does not depend on how Python enumerates the set of common names, nor does a lookup in what
   _join_non_none returns; the names of the merged list and their order; on lists that are aligned already the merge is the
   pointwise one (merge_aligned, for Model/FuncFmt.v). *)
From Coq Require Import Permutation.
From CDD Require Import PyStr PyStrFacts Merge.

Section Generic.
  Variable name : Type.
  Variable name_eqb : name -> name -> bool.
  Hypothesis name_eqb_spec : forall a b, name_eqb a b = true <-> a = b.
  Variable param : Type.
  Variable mpp : param -> param -> param.
  Notation params := (params name param).
  Notation lookup := (lookup name name_eqb param).
  Notation update := (update name name_eqb param).
  Notation names := (names name param).
  Notation mem := (mem name name_eqb param).
  Notation step1 := (step1 name name_eqb param mpp).
  Notation loop1 := (loop1 name name_eqb param mpp).
  Notation loop2 := (loop2 name name_eqb param).
  Notation merge_params := (merge_params name name_eqb param mpp).
  Notation inter_in_order := (inter_in_order name name_eqb param).

  Lemma eqb_neq a b : a <> b -> name_eqb a b = false.
  Proof. exact (PyStrFacts.eqb_neq name_eqb name_eqb_spec a b). Qed.

  Lemma names_update n f l : names (update n f l) = names l.
  Proof. induction l as [|[k v] r IH]; cbn; [reflexivity|]. destruct (name_eqb n k); cbn; [reflexivity|]. f_equal. exact IH. Qed.

  Lemma update_comm a b f g l : a <> b -> update a f (update b g l) = update b g (update a f l).
  Proof.
    intro Hab. induction l as [|[k v] r IH]; cbn; [reflexivity|].
    destruct (eqbP name_eqb name_eqb_spec b k) as [->|Nb]; cbn.
    - rewrite (eqb_neq a k Hab). cbn. rewrite (eqb_refl name_eqb name_eqb_spec). reflexivity.
    - destruct (name_eqb a k) eqn:Ea; cbn; rewrite ?Ea, (eqb_neq b k Nb), ?IH; reflexivity.
  Qed.

  Lemma step1_comm other t a b : a <> b -> step1 other (step1 other t a) b = step1 other (step1 other t b) a.
  Proof.
    intro Hab. unfold Merge.step1. destruct (lookup a other), (lookup b other); try reflexivity.
    apply update_comm. congruence.
  Qed.

  (* a name listed twice is no obstacle: two equal neighbours swap to the same list *)
  Lemma loop1_perm other : forall e1 e2, Permutation e1 e2 -> forall t, loop1 e1 other t = loop1 e2 other t.
  Proof.
    unfold Merge.loop1. induction 1 as [| x l l' HP IH | x y l | l l' l'' HP1 IH1 HP2 IH2]; intro t; cbn [fold_left].
    - reflexivity.
    - apply IH.
    - destruct (eqbP name_eqb name_eqb_spec y x) as [->|N]; [reflexivity | rewrite (step1_comm other t y x N); reflexivity].
    - rewrite IH1. apply IH2.
  Qed.

  Theorem merge_enum_independent other t e1 e2 : Permutation e1 e2 -> merge_params e1 other t = merge_params e2 other t.
  Proof. intro HP. unfold Merge.merge_params. rewrite (loop1_perm other e1 e2 HP). reflexivity. Qed.

  Lemma loop1_names other : forall e t, names (loop1 e other t) = names t.
  Proof.
    unfold Merge.loop1. induction e as [|n e IH]; intros t; cbn [fold_left]; [reflexivity|].
    rewrite IH. unfold Merge.step1. destruct (lookup n other); [apply names_update|reflexivity].
  Qed.

  (* the names loop 2 appends *)
  Fixpoint fresh (seen : list name) (l : list name) : list name :=
    match l with
    | [] => []
    | n :: r => if existsb (name_eqb n) seen then fresh seen r else n :: fresh (seen ++ [n]) r
    end.
  Lemma loop2_names : forall other t, names (loop2 other t) = names t ++ fresh (names t) (names other).
  Proof.
    unfold Merge.loop2. induction other as [|[k v] r IH]; intros t.
    - cbn. rewrite app_nil_r. reflexivity.
    - cbn [fold_left fst]. change (names ((k, v) :: r)) with (k :: names r). cbn [fresh].
      destruct (existsb (name_eqb k) (names t)) eqn:E.
      + assert (Hm : mem k t = true) by exact E. rewrite Hm. apply IH.
      + assert (Hm : mem k t = false) by exact E. rewrite Hm.
        rewrite IH. unfold Merge.names. rewrite map_app. cbn. rewrite <- app_assoc. reflexivity.
  Qed.

  Theorem merge_order_spec enum other t :
    names (merge_params enum other t) = names t ++ fresh (names t) (names other).
  Proof. unfold Merge.merge_params. rewrite loop2_names, loop1_names. reflexivity. Qed.

  Lemma fresh_extends : forall l seen,
    (NoDup seen -> NoDup (seen ++ fresh seen l)) /\ forall n, In n seen \/ In n l -> In n (seen ++ fresh seen l).
  Proof.
    induction l as [|x r IH]; intros seen; cbn [fresh].
    - rewrite app_nil_r. split; [auto | intros n [H|[]]; exact H].
    - destruct (existsbP name_eqb name_eqb_spec x seen) as [Hx|Hx].
      + destruct (IH seen) as [A B]. split; [exact A|]. intros n [H|[<-|H]]; apply B; auto.
      + replace (seen ++ x :: fresh (seen ++ [x]) r) with ((seen ++ [x]) ++ fresh (seen ++ [x]) r) by (rewrite <- app_assoc; reflexivity).
        destruct (IH (seen ++ [x])) as [A B]. split; [intro N; apply A, NoDup_snoc; assumption|].
        intros n [H|[<-|H]]; apply B; rewrite ?in_app_iff; cbn; auto.
  Qed.

  Theorem merge_nodup enum other t :
    NoDup (names t) -> NoDup (names (merge_params enum other t)).
  Proof. intro Hnd. rewrite merge_order_spec. apply fresh_extends, Hnd. Qed.

  Theorem merge_covers_other enum other t n :
    In n (names other) -> In n (names (merge_params enum other t)).
  Proof. intro H. rewrite merge_order_spec. apply fresh_extends. auto. Qed.

  Theorem merge_signature_once enum other t n (eq_dec : forall a b : name, {a = b} + {a <> b}) :
    NoDup (names t) -> In n (names other) -> count_occ eq_dec (names (merge_params enum other t)) n = 1%nat.
  Proof.
    intros Hnd Hin. apply NoDup_count_occ'; [apply merge_nodup, Hnd | apply merge_covers_other, Hin].
  Qed.

  Lemma lookup_in n v : forall l, NoDup (names l) -> In (n, v) l -> lookup n l = Some v.
  Proof.
    induction l as [|[k w] r IH]; intros Hnd Hin; [contradiction|]. inversion Hnd as [|? ? Hk Hr]. cbn [Merge.lookup].
    destruct Hin as [E|Hin]; [injection E as -> ->; rewrite (eqb_refl name_eqb name_eqb_spec); reflexivity|].
    rewrite eqb_neq; [exact (IH Hr Hin)|]. intros ->. exact (Hk (in_keys r k v Hin)).
  Qed.

  Lemma loop1_head other n v : forall e t, ~ In n e -> loop1 e other ((n, v) :: t) = (n, v) :: loop1 e other t.
  Proof.
    unfold Merge.loop1. induction e as [|m e IH]; intros t H; [reflexivity|]. cbn [fold_left].
    rewrite <- IH by (intro K; apply H; right; exact K). f_equal.
    unfold Merge.step1. destruct (lookup m other); [|reflexivity]. cbn [Merge.update].
    rewrite eqb_neq; [reflexivity|]. intros ->. apply H. left. reflexivity.
  Qed.

  Lemma loop1_aligned {A} (key : A -> name) (o t : A -> param) other : forall l, NoDup (map key l) ->
    (forall x, In x l -> lookup (key x) other = Some (o x)) ->
    loop1 (map key l) other (map (fun x => (key x, t x)) l) = map (fun x => (key x, mpp (o x) (t x))) l.
  Proof.
    induction l as [|a l IH]; intros Hnd Hl; [reflexivity|]. inversion Hnd as [|? ? Hn Hnd']; subst. cbn [map].
    change (loop1 (key a :: map key l) other ?u) with (loop1 (map key l) other (step1 other u (key a))).
    unfold Merge.step1. rewrite (Hl a (or_introl eq_refl)). cbn [Merge.update].
    rewrite (eqb_refl name_eqb name_eqb_spec), (loop1_head other (key a) _ _ _ Hn). f_equal.
    apply IH; [exact Hnd' | intros x Hx; apply Hl; right; exact Hx].
  Qed.

  Lemma loop2_present other : forall t, (forall kv, In kv other -> mem (fst kv) t = true) -> loop2 other t = t.
  Proof.
    unfold Merge.loop2. induction other as [|kv r IH]; intros t H; [reflexivity|]. cbn [fold_left]. rewrite (H kv (or_introl eq_refl)).
    apply IH. intros x Hx. apply H. right. exact Hx.
  Qed.

  (* other = map (key, o) l and target = map (key, t) l: the same names in the same order *)
  Theorem merge_aligned {A} (key : A -> name) (o t : A -> param) l : NoDup (map key l) ->
    merge_params (inter_in_order (map (fun x => (key x, o x)) l) (map (fun x => (key x, t x)) l))
                 (map (fun x => (key x, o x)) l) (map (fun x => (key x, t x)) l)
    = map (fun x => (key x, mpp (o x) (t x))) l.
  Proof.
    intro Hnd. unfold Merge.merge_params.
    assert (M : forall n u, In n (names u) -> mem n u = true) by (intros n u; apply (existsb_eqb_In name_eqb name_eqb_spec)).
    assert (K : forall f : A -> param, names (map (fun x => (key x, f x)) l) = map key l) by (intro f; apply map_map).
    replace (inter_in_order _ _) with (map key l).
    2:{ symmetry. unfold Merge.inter_in_order. rewrite K. apply filter_id, forallb_forall. intros n Hn. apply M. rewrite K. exact Hn. }
    rewrite (loop1_aligned key o).
    - apply loop2_present. intros kv Hkv. apply M. rewrite K, <- (K o). apply in_map, Hkv.
    - exact Hnd.
    - intros x Hx. apply lookup_in; [rewrite K; exact Hnd | exact (in_map (fun x => (key x, o x)) l x Hx)].
  Qed.
End Generic.

Lemma kv_get_set_same k v m : kv_get k (kv_set k v m) = v.
Proof.
  induction m as [|[a w] r IH]; cbn; [rewrite str_eqb_refl; reflexivity|].
  destruct (str_eqb k a) eqn:E; cbn; rewrite E; [reflexivity | exact IH].
Qed.
Lemma kv_get_set_other k k' v m : k <> k' -> kv_get k' (kv_set k v m) = kv_get k' m.
Proof.
  intro Hn. induction m as [|[a w] r IH]; cbn.
  - rewrite str_eqb_neq by congruence. reflexivity.
  - destruct (str_eqbP k a) as [<-|]; cbn; [rewrite !(str_eqb_neq k') by congruence | rewrite IH]; reflexivity.
Qed.

(* the function Model/Merge.v:join_non_none folds over the enumeration *)
Definition join_step (primacy other : kv) (acc : kv) (k : str) : kv :=
  match kv_get k primacy, kv_get k other with None, Some v => kv_set k (Some v) acc | _, _ => acc end.
Lemma join_get primacy other enum : forall acc k,
  kv_get k (fold_left (join_step primacy other) enum acc)
  = if mem_str k enum
    then match kv_get k primacy, kv_get k other with None, Some v => Some v | _, _ => kv_get k acc end
    else kv_get k acc.
Proof.
  induction enum as [|x enum IH]; intros acc k; cbn [fold_left mem_str existsb]; [reflexivity|].
  fold (mem_str k enum). rewrite IH. unfold join_step.
  destruct (str_eqbP k x) as [<-|Hne]; cbn [orb].
  - destruct (kv_get k primacy), (kv_get k other); rewrite ?kv_get_set_same; destruct (mem_str k enum); reflexivity.
  - destruct (kv_get x primacy), (kv_get x other); rewrite ?(kv_get_set_other x k) by congruence; reflexivity.
Qed.
Lemma join_non_none_get enum primacy other k :
  kv_get k (join_non_none enum primacy other)
  = if mem_str k enum
    then match kv_get k primacy, kv_get k other with None, Some v => Some v | _, _ => kv_get k primacy end
    else kv_get k primacy.
Proof. exact (join_get primacy other enum primacy k). Qed.
