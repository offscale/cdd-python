From Coq Require Import List String Bool.
Import ListNotations.
From CDD Require Import GuardSeq.
Local Open Scope string_scope.

(* once the approved guard has fired nothing runs; before it, [guarded] forbids calls *)
Lemma guarded_runs_nothing items : forall other,
  guarded false items = true -> run true other true items = [].
Proof.
  induction items as [|it r IH]; intros other H; [reflexivity|].
  destruct it as [c|f a|t|x|x]; cbn [guarded run] in *.
  - destruct (String.eqb c approved_cond) eqn:E; cbn in *.
    + reflexivity.
    + destruct other; [reflexivity|]. apply IH. exact H.
  - discriminate.
  - apply andb_true_iff in H as [Hr H]. rewrite Hr. cbn. apply IH. exact H.
  - apply IH. exact H.
  - discriminate.
Qed.

(* the guard is not a blanket refusal: without the target the call happens *)
Example run_calls_gen :
  run false false true [IGuardRaise approved_cond; ICall "gen" "**args_dict"] = ["gen"].
Proof. reflexivity. Qed.
(* a re-binding before the guard breaks the link: gen is called on an existing target *)
Example rebinding_breaks :
  In "gen" (run true false true [IAssign "args_dict['output_filename']"; IGuardRaise approved_cond; ICall "gen" "**args_dict"]).
Proof. cbn. left. reflexivity. Qed.
