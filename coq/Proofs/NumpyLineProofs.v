From CDD Require Import PyStr PyStrFacts RestDocProofs GoogleLine GoogleLineProofs NumpyLine.
Open Scope N_scope.

Theorem numpy_unit_roundtrip (n t : str) (d : option str) :
  head_ok n = true -> head_ok (rev n) = true -> lacks GCOLON n = true -> head_ok t = true ->
  match d with Some x => head_ok x = true | None => True end ->
  parse_numpy_unit (emit_numpy_param true true n (Some t) d)
  = NEntry n (Some t) (Some (match d with Some x => x | None => [] end)).
Proof.
  intros N1 N2 NC T1 Hd. unfold emit_numpy_param, parse_numpy_unit. cbn [app].
  rewrite (break_at_app GCOLON (n ++ [SP]) (SP :: t)) by (rewrite ?lacks_app, ?NC, <- ?app_assoc; reflexivity).
  rewrite match_nonempty by (destruct n; discriminate).
  rewrite (strip_rpadded n [SP] eq_refl N1 N2), (lstrip_head_ok t T1 : lstrip (SP :: t) = t) (* lstrip steps over the blank by evaluation *).
  destruct d as [x|]; cbn [map join app]; [|reflexivity].
  rewrite (lstrip_blank_app TAB4), (lstrip_head_ok x Hd) by reflexivity. reflexivity.
Qed.

(* with types off only the description line is written, and it is read back as a NAME *)
Example numpy_without_types_refuted :
  emit_numpy_param false true (s2l "size") (Some (s2l "int")) (Some (s2l "how big")) = [s2l "    how big"]
  /\ parse_numpy_unit [s2l "    how big"] = NEntry (s2l "how big") None None.
Proof. split; vm_compute; reflexivity. Qed.

Example numpy_example :
  parse_numpy_unit (emit_numpy_param true true (s2l "size") (Some (s2l "Optional[int]")) (Some (s2l "how big")))
  = NEntry (s2l "size") (Some (s2l "Optional[int]")) (Some (s2l "how big")).
Proof. vm_compute. reflexivity. Qed.

Definition nentry := (str * str * option str)%type.
Definition nentry_ok (e : nentry) : bool :=
  let '(n, t, d) := e in
  head_ok n && head_ok (rev n) && lacks GCOLON n && head_ok t
  && match last_opt t with Some c => negb (c =? GCOLON) | None => false end
  && match d with Some x => head_ok x | None => true end.
Definition emit_nentry (e : nentry) : list str := let '(n, t, d) := e in emit_numpy_param true true n (Some t) d.
Definition read_nentry (e : nentry) : (str * option str * option str) :=
  let '(n, t, d) := e in (n, Some t, Some (match d with Some x => x | None => [] end)).

Lemma typed_unit_not_afterward (n t : str) (d : option str) : match last_opt t with Some c => negb (c =? GCOLON) | None => false end = true ->
  unit_afterward (emit_numpy_param true true n (Some t) d) = false.
Proof.
  intro H. unfold emit_numpy_param, unit_afterward. cbn [app]. unfold is_afterward.
  destruct t as [|t0 tr]; [discriminate|]. destruct (exists_last (l := t0 :: tr)) as [r [c E]]; [discriminate|].
  rewrite E, last_opt_snoc in *. apply negb_true_iff in H.
  change (SP :: GCOLON :: SP :: r ++ [c]) with ((SP :: GCOLON :: SP :: r) ++ [c]). rewrite app_assoc, endswith_snoc, N.eqb_sym, H. reflexivity.
Qed.

Lemma nentry_ok_spec n t d : nentry_ok (n, t, d) = true <->
  head_ok n = true /\ head_ok (rev n) = true /\ lacks GCOLON n = true /\ head_ok t = true
  /\ match last_opt t with Some c => negb (c =? GCOLON) | None => false end = true
  /\ match d with Some x => head_ok x = true | None => True end.
Proof.
  unfold nentry_ok. split.
  - intros [[[[[H1 H2]%andb_prop H3]%andb_prop H4]%andb_prop H5]%andb_prop H6]%andb_prop. destruct d; repeat split; assumption.
  - intros (-> & -> & -> & -> & -> & Hd). destruct d; [exact Hd | reflexivity].
Qed.

Theorem numpy_params_roundtrip es : forallb nentry_ok es = true -> numpy_params (map emit_nentry es) = map read_nentry es.
Proof.
  unfold numpy_params. induction es as [|[[n t] d] es IH]; cbn [map forallb take_until flat_map]; intro H; [reflexivity|].
  apply andb_prop in H as [(N1 & N2 & NC & T1 & Hl & Hd)%nentry_ok_spec Hr].
  change (emit_nentry (n, t, d)) with (emit_numpy_param true true n (Some t) d). rewrite (typed_unit_not_afterward n t d Hl). cbn [flat_map].
  rewrite (numpy_unit_roundtrip n t d N1 N2 NC T1 Hd). cbn [app read_nentry]. f_equal. apply IH. exact Hr.
Qed.

Example numpy_params_example :
  numpy_params [[s2l "size : int"; s2l "    how big"]; [s2l "label : str"]; [s2l "Notes:"; s2l "    free text"]; [s2l "late : int"]]
  = [(s2l "size", Some (s2l "int"), Some (s2l "how big")); (s2l "label", Some (s2l "str"), Some [])].
Proof. vm_compute. reflexivity. Qed.
