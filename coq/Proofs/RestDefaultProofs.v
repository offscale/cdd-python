(* Defaults carried in the prose of a ReST description: a parameter whose description announces its default (item_param) is in the
   domain of the ReST round trip (item_param_ok), and extract_default finds the announced text again, up to the blanks and back-ticks
   around it, the description with the emitter's full stop (read_back_item: strip3 t, dotted d). *)
From CDD Require Import PyStr RestDoc RestDocProofs.
From CDD Require ExtractDefault ExtractDefaultProofs DefaultDoc PyStrFacts.
Module E := ExtractDefault. Module EP := ExtractDefaultProofs.

Definition announce (d t : str) : str := DefaultDoc.set_default_doc (fun x => x) d (Some t) true.

(* beyond the shape of a ReST entry: neither text says "default" and the scan keeps t whole (ExtractDefaultProofs.v) *)
Definition dt_ok (d t : str) : bool :=
  head_ok d && no_colon d && no_colon t && head_ok (rev t) && negb (EP.has_kw d) && negb (EP.has_kw t) && str_eqb (E.scan_default t false) t.

Lemma dt_ok_parts d t : dt_ok d t = true ->
  head_ok d = true /\ no_colon d = true /\ no_colon t = true /\ tail_ok t = true
  /\ EP.has_kw d = false /\ EP.has_kw t = false /\ E.scan_default t false = t.
Proof.
  unfold dt_ok. intro H. apply andb_prop in H as [H KS]. apply andb_prop in H as [H Kt]. apply andb_prop in H as [H Kd].
  apply andb_prop in H as [H Tt]. apply andb_prop in H as [H Ct]. apply andb_prop in H as [Hd Cd].
  apply negb_true_iff in Kt, Kd. apply PyStrFacts.str_eqb_eq in KS. repeat split; assumption.
Qed.

Lemma announce_clean d t : dt_ok d t = true -> clean (announce d t) = true.
Proof.
  intro H. apply dt_ok_parts in H as [Hd [Cd [Ct [Tt [Kd _]]]]]. unfold announce. rewrite (EP.announced (fun x => x) d t Kd).
  assert (D : head_ok (EP.dotted d) = true /\ no_colon (EP.dotted d) = true).
  { unfold EP.dotted. destruct (DefaultDoc.ends_with_stop d); [auto|]. rewrite no_colon_app, Cd. split; [apply head_ok_app, Hd | reflexivity]. }
  apply clean_iff. split; [apply head_ok_app, D | split; [do 2 apply tail_ok_app_r; exact Tt|]].
  rewrite !no_colon_app, (proj2 D), Ct. reflexivity.
Qed.

Definition item := (str * (str * str))%type.      (* name, (description, default text) *)
Definition item_ok (it : item) : bool := name_ok (fst it) && dt_ok (fst (snd it)) (snd (snd it)).
Definition item_param (it : item) : str * pentry := (fst it, {| pe_doc := Some (announce (fst (snd it)) (snd (snd it))); pe_typ := None |}).
Definition read_back (ne : str * pentry) : str * (str * option str) :=
  (fst ne, match pe_doc (snd ne) with Some l => E.extract_default_text l false | None => ([], None) end).

Lemma item_param_ok it : item_ok it = true -> param_ok (item_param it) = true.
Proof.
  unfold item_ok. intro H. apply andb_true_iff in H as [A B]. unfold param_ok, item_param, entry_ok. cbn [fst snd pe_doc pe_typ].
  rewrite A, (announce_clean _ _ B). reflexivity.
Qed.

Lemma read_back_item it : item_ok it = true ->
  read_back (item_param it) = (fst it, (EP.dotted (fst (snd it)), Some (EP.strip3 (snd (snd it))))).
Proof.
  unfold item_ok. intro H. apply andb_true_iff in H as [_ H]. apply dt_ok_parts in H as [_ [_ [_ [_ [Kd [Kt KS]]]]]].
  unfold read_back, item_param. cbn [fst snd pe_doc]. f_equal. apply (EP.default_text_roundtrip (fun x => x)); assumption.
Qed.
