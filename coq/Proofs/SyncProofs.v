(* The decision table of Model/Sync.v for EVERY type of names and of interfaces and EVERY lookup function [find]: nothing is assumed of
   what find_in_ast returns beyond what a theorem states. *)
From Coq Require Import List.
Import ListNotations.
From CDD Require Import Sync.

Section Sync.
  Variable name : Type.
  Variable name_eqb : name -> name -> bool.
  Hypothesis name_eqb_refl : forall n, name_eqb n n = true.
  Variable I : Type.
  Variable I_eqb : I -> I -> bool.
  Hypothesis I_eqb_refl : forall i, I_eqb i i = true.
  Hypothesis I_eqb_eq : forall a b, I_eqb a b = true -> a = b.
  Variable find : name -> list (item name I) -> option I.
  Notation cex := (conform_existing name name_eqb I I_eqb find).
  Notation conform := (conform name name_eqb I I_eqb find).
  Notation replace := (replace name name_eqb I).
  Notation lookup := (lookup name name_eqb I).
  Notation other_defs := (other_defs name name_eqb I).

  Lemma other_defs_replace n g l : other_defs n (replace n g l) = other_defs n l.
  Proof.
    induction l as [|[m i|k] r IH]; cbn; [reflexivity| |].
    - destruct (name_eqb m n) eqn:E; cbn; rewrite E; cbn; [reflexivity | f_equal; exact IH].
    - f_equal. exact IH.
  Qed.
  Lemma other_defs_app n a b : other_defs n (a ++ b) = other_defs n a ++ other_defs n b.
  Proof. unfold Sync.other_defs. apply filter_app. Qed.

  Theorem outside_unchanged k n gold items items' :
    cex k n gold items = Some items' -> other_defs n items' = other_defs n items.
  Proof.
    unfold Sync.conform_existing. destruct (find n items) as [old|].
    - destruct (I_eqb old gold); [intro H; injection H as <-; reflexivity|].
      destruct k; intro H; injection H as <-; [apply other_defs_replace | reflexivity | reflexivity].
    - intro H. injection H as <-. rewrite other_defs_app. cbn. rewrite name_eqb_refl. cbn. apply app_nil_r.
  Qed.

  Theorem created_equiv k n gname gold : k <> KFunction ->
    conform k n gname gold None = Some (Some [Def name I gname gold]) /\ lookup gname [Def name I gname gold] = Some gold.
  Proof. intro Hk. split; [destruct k; [reflexivity | contradiction | reflexivity]|]. cbn. rewrite name_eqb_refl. reflexivity. Qed.
  Theorem created_wrong_name k n gname gold : k <> KFunction -> name_eqb gname n = false ->
    exists items, conform k n gname gold None = Some (Some items) /\ lookup n items = None.
  Proof.
    intros Hk Hn. exists [Def name I gname gold]. split; [destruct k; [reflexivity | contradiction | reflexivity]|].
    cbn. rewrite Hn. reflexivity.
  Qed.
  Theorem missing_function_crashes n gname gold : conform KFunction n gname gold None = None.
  Proof. reflexivity. Qed.

  Lemma lookup_replace n g l i : lookup n l = Some i -> lookup n (replace n g l) = Some g.
  Proof.
    induction l as [|[m j|k] r IH]; cbn; [discriminate| |exact IH].
    destruct (name_eqb m n) eqn:E; cbn; rewrite E; [reflexivity | exact IH].
  Qed.

  Theorem class_target_equiv n gold items old items' :
    find n items = Some old -> lookup n items = Some old ->
    cex KClass n gold items = Some items' -> lookup n items' = Some gold.
  Proof.
    intros Hf Hl. unfold Sync.conform_existing. rewrite Hf. destruct (I_eqb old gold) eqn:E.
    - intro H. injection H as <-. rewrite Hl. f_equal. apply I_eqb_eq. exact E.
    - intro H. injection H as <-. eapply lookup_replace; eauto.
  Qed.

  Lemma cex_class n gold items :
    (forall l, find n l = lookup n l) ->
    cex KClass n gold items =
      match lookup n items with
      | None => Some (items ++ [Def name I n gold])
      | Some old => if I_eqb old gold then Some items else Some (replace n gold items)
      end.
  Proof. intro Hfind. unfold Sync.conform_existing. rewrite Hfind. reflexivity. Qed.

  Lemma lookup_app n a b : lookup n (a ++ b) = match lookup n a with Some i => Some i | None => lookup n b end.
  Proof. induction a as [|[m i|k] r IH]; cbn; [reflexivity| |exact IH]. destruct (name_eqb m n); [reflexivity | exact IH]. Qed.

  Theorem class_idempotent n gold items items' :
    (forall l, find n l = lookup n l) ->
    cex KClass n gold items = Some items' -> cex KClass n gold items' = Some items'.
  Proof.
    intros Hfind. rewrite (cex_class n gold items Hfind).
    destruct (lookup n items) as [old|] eqn:El.
    - destruct (I_eqb old gold) eqn:E; intro H; injection H as <-.
      + rewrite (cex_class n gold items Hfind), El, E. reflexivity.
      + rewrite (cex_class n gold _ Hfind), (lookup_replace n gold items old El), I_eqb_refl. reflexivity.
    - intro H. injection H as <-. rewrite (cex_class n gold _ Hfind), lookup_app, El. cbn [Sync.lookup]. rewrite name_eqb_refl, I_eqb_refl. reflexivity.
  Qed.

  Theorem function_target_untouched k n gold items old :
    k <> KClass -> find n items = Some old -> I_eqb old gold = false -> cex k n gold items = Some items.
  Proof. intros Hk Hf He. unfold Sync.conform_existing. rewrite Hf, He. destruct k; [contradiction | reflexivity | reflexivity]. Qed.

  Theorem append_grows k n gold items :
    find n (items ++ [Def name I n gold]) = None ->
    cex k n gold (items ++ [Def name I n gold]) = Some ((items ++ [Def name I n gold]) ++ [Def name I n gold]).
  Proof. intro H. unfold Sync.conform_existing. rewrite H. reflexivity. Qed.
End Sync.
