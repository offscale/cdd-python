(* cmp_ast recurses through lists of children by an inner loop.  pyobj_rect' is the induction principle that hands the hypothesis to
   every child; go_cmp and go_ar name the inner loops of cmp_ast and same_arity, so that the equations cmp_unfold_* can be stated. *)
From CDD Require Import PyStr PyStrFacts CmpAst.

Section Ind.
  Variable P : pyobj -> Prop.
  Hypothesis HN : forall c fs, Forall P fs -> P (Node c fs).
  Hypothesis HL : forall l, Forall P l -> P (Lst l).
  Hypothesis HT : forall l, Forall P l -> P (Tup l).
  Hypothesis HA : forall t r, P (Atom t r).
  Definition Forall_of (f : forall o, P o) : forall l, Forall P l :=
    fix go l := match l with [] => Forall_nil _ | x :: r => Forall_cons _ (f x) (go r) end.
  Fixpoint pyobj_rect' (o : pyobj) : P o :=
    match o with
    | Node c fs => HN c fs (Forall_of pyobj_rect' fs)
    | Lst l => HL l (Forall_of pyobj_rect' l)
    | Tup l => HT l (Forall_of pyobj_rect' l)
    | Atom t r => HA t r
    end.
End Ind.

Definition go_cmp := fix go (x y : list pyobj) : bool := match x, y with p :: x', q :: y' => cmp_ast p q && go x' y' | _, _ => true end.

Lemma cmp_unfold_lst x y : cmp_ast (Lst x) (Lst y) = Nat.eqb (length x) (length y) && go_cmp x y. Proof. reflexivity. Qed.
Lemma cmp_unfold_tup x y : cmp_ast (Tup x) (Tup y) = Nat.eqb (length x) (length y) && go_cmp x y. Proof. reflexivity. Qed.
Lemma cmp_unfold_node c d x y : cmp_ast (Node c x) (Node d y) = str_eqb c d && go_cmp x y. Proof. reflexivity. Qed.

Lemma go_cmp_eq : forall x, Forall (fun p => forall q, cmp_ast p q = true -> p = q) x ->
  forall y, length x = length y -> go_cmp x y = true -> x = y.
Proof.
  induction x as [|p x IH]; intros HF [|q y] HL Hc; try reflexivity; try discriminate HL.
  inversion HF as [|? ? Hp HF']; subst. cbn [go_cmp] in Hc. apply andb_true_iff in Hc as [H1 H2]. injection HL as HL.
  rewrite (Hp q H1). f_equal. apply IH; assumption.
Qed.

Lemma go_cmp_refl : forall x, Forall (fun p => cmp_ast p p = true) x -> go_cmp x x = true.
Proof. induction x as [|p x IH]; intro HF; [reflexivity|]. inversion HF; subst. cbn. rewrite H1. apply IH. assumption. Qed.

(* instances of one class have the same number of fields (Python: _fields belongs to the class); needed because cmp_ast on two nodes
   zips over the fields and compares no lengths *)
Fixpoint same_arity (a b : pyobj) : bool :=
  match a, b with
  | Node c x, Node d y => (if str_eqb c d then Nat.eqb (length x) (length y) else true)
                          && (fix go (x y : list pyobj) := match x, y with p :: x', q :: y' => same_arity p q && go x' y' | _, _ => true end) x y
  | Lst x, Lst y | Tup x, Tup y => (fix go (x y : list pyobj) := match x, y with p :: x', q :: y' => same_arity p q && go x' y' | _, _ => true end) x y
  | _, _ => true
  end.
Definition go_ar := fix go (x y : list pyobj) : bool := match x, y with p :: x', q :: y' => same_arity p q && go x' y' | _, _ => true end.

Definition only_equal (p : pyobj) : Prop := forall q, same_arity p q = true -> cmp_ast p q = true -> p = q.

Lemma children_only_equal : forall x y, Forall only_equal x ->
  Nat.eqb (length x) (length y) && go_cmp x y = true -> go_ar x y = true -> x = y.
Proof.
  induction x as [|p x IH]; intros [|q y] HF Hc Ha; try reflexivity; try discriminate Hc.
  inversion HF as [|? ? Hp HF']; subst. cbn in Ha, Hc. apply andb_true_iff in Ha as [A1 A2].
  apply andb_true_iff in Hc as [L Hc]. apply andb_true_iff in Hc as [C1 C2].
  rewrite (Hp q A1 C1). f_equal. apply IH; [exact HF' | rewrite L, C2; reflexivity | exact A2].
Qed.

Lemma node_only_equal c d x y : Forall only_equal x ->
  same_arity (Node c x) (Node d y) = true -> cmp_ast (Node c x) (Node d y) = true -> Node c x = Node d y.
Proof.
  intros HF Ha Hc. rewrite cmp_unfold_node in Hc. apply andb_true_iff in Hc as [E Hc].
  change (same_arity (Node c x) (Node d y)) with ((if str_eqb c d then Nat.eqb (length x) (length y) else true) && go_ar x y) in Ha.
  rewrite E in Ha. apply andb_true_iff in Ha as [L Ha]. apply str_eqb_eq in E. subst d.
  f_equal. apply children_only_equal; [exact HF | rewrite L, Hc; reflexivity | exact Ha].
Qed.
