(* Checking effects by closure is sound for EVERY program of the skeleton language (Model/EffectSem.v), by one induction on the
   execution: if every context of a set passes the local check against callees in the set again, executions started in a member
   produce only harmless events.  The model's checker and a second one for the kernel are instances. *)
From Coq Require Import List Bool Arith PArith FSetPositive.
Import ListNotations.
From CDD Require Import EffectSem.
Module PS := PositiveSet.

Lemma ctx_eqb_eq a b : ctx_eqb a b = true -> a = b.
Proof.
  destruct a as [f d], b as [g e]; unfold ctx_eqb; cbn.
  intro H. apply andb_true_iff in H as [H1 H2].
  apply Nat.eqb_eq in H1. apply Bool.eqb_prop in H2. subst. reflexivity.
Qed.

Lemma mem_ctx_In c S : mem_ctx c S = true -> In c S.
Proof.
  unfold mem_ctx. intro H. apply existsb_exists in H as [x [Hin Heq]].
  apply ctx_eqb_eq in Heq. subst. exact Hin.
Qed.

Lemma harmless_app bad t1 t2 : harmless bad t1 -> harmless bad t2 -> harmless bad (t1 ++ t2).
Proof. unfold harmless. intros. apply Forall_app. split; assumption. Qed.

(* SOME list of accepted callees per context: the model's checker uses one list for all contexts, the checker below one per context *)
Section Sound.
  Variable bad : ekind -> nat -> bool.
  Variable p : prog.
  Variable ok : ctx -> Prop.
  Hypothesis Hok : forall f d, ok (f, d) -> exists S, local_ok bad S d (body_of p f) = true /\ Forall ok S.

  Lemma stmt_ok S dry s r : local_ok bad S dry (BCons s r) = true -> local_ok bad S dry (BCons s BNil) = true.
  Proof. cbn [local_ok]. intro H. apply andb_true_iff in H as [H _]. rewrite H. reflexivity. Qed.

  Lemma call_sound f d tr S :
    (forall S', Forall ok S' -> local_ok bad S' d (body_of p f) = true -> harmless bad tr) ->
    Forall ok S -> mem_ctx (f, d) S = true -> harmless bad tr.
  Proof.
    intros IH HS Hm. rewrite Forall_forall in HS. destruct (Hok f d (HS _ (mem_ctx_In _ _ Hm))) as [S' [L HS']]. exact (IH S' HS' L).
  Qed.

  Lemma local_sound :
    (forall dry b tr, exec p dry b tr -> forall S, Forall ok S -> local_ok bad S dry b = true -> harmless bad tr) /\
    (forall dry s tr, exec_s p dry s tr -> forall S, Forall ok S -> local_ok bad S dry (BCons s BNil) = true -> harmless bad tr).
  Proof.
    apply exec_mut.
    - constructor.
    - intros dry s b t1 t2 _ IHs _ IHb S HS H. apply harmless_app; [exact (IHs S HS (stmt_ok _ _ _ _ H))|].
      cbn [local_ok] in H. apply andb_true_iff in H as [_ H]. exact (IHb S HS H).
    - intros dry k s S _ H. cbn in H. rewrite andb_true_r in H. constructor; [apply negb_true_iff, H | constructor].
    - intros dry t e tr _ IH S HS H. cbn in H. rewrite Bool.eqb_reflx, andb_true_r in H. eauto.
    - intros dry t e tr _ IH S HS H. cbn in H. rewrite andb_true_r in H. destruct dry; eauto.
    - intros dry t e tr _ IH S HS H. cbn in H. rewrite Bool.eqb_reflx in H. apply andb_true_iff in H as [H _]. apply andb_true_iff in H as [H _]. eauto.
    - intros dry pol t e tr _ IH S HS H. cbn in H. apply andb_true_iff in H as [H _]. apply andb_true_iff in H as [_ H]. eauto.
    - intros dry t e tr _ IH S HS H. cbn in H. apply andb_true_iff in H as [H _]. apply andb_true_iff in H as [H _]. eauto.
    - intros dry t e tr _ IH S HS H. cbn in H. apply andb_true_iff in H as [H _]. apply andb_true_iff in H as [_ H]. eauto.
    - intros dry f tr _ IH S HS H. cbn in H. rewrite andb_true_r in H. eapply call_sound; eauto.
    - intros dry f b tr _ IH S HS H. cbn in H. rewrite andb_true_r in H. eapply call_sound; eauto.
    - intros dry f b tr _ IH S HS H. cbn in H. rewrite andb_true_r in H. apply andb_true_iff in H as [Ht Hf]. eapply call_sound; eauto. destruct b; assumption.
    - constructor.
    - intros dry b t1 t2 _ IHb _ IHl S HS H. apply harmless_app; [|exact (IHl S HS H)]. cbn in H. rewrite andb_true_r in H. eauto.
  Qed.

  Theorem invariant_sound f d tr : ok (f, d) -> exec p d (body_of p f) tr -> harmless bad tr.
  Proof. intros H He. destruct (Hok f d H) as [S [L HS]]. exact (proj1 local_sound d _ tr He S HS L). Qed.
End Sound.

Theorem closed_sound bad p S f d tr :
  closed_ok bad p S = true -> In (f, d) S -> exec p d (body_of p f) tr -> harmless bad tr.
Proof.
  intro Hc. apply (invariant_sound bad p (fun c => In c S)). intros f' d' Hin. exists S. split; [|apply Forall_forall; auto].
  unfold closed_ok in Hc. rewrite forallb_forall in Hc. exact (Hc _ Hin).
Qed.

(* whatever set [reach] computed, with enough fuel or not: acceptance re-checks closure on it *)
Theorem safe_from_sound bad p f d :
  safe_from bad p (f, d) = true ->
  forall tr, exec p d (body_of p f) tr -> harmless bad tr.
Proof.
  unfold safe_from. intros H tr. apply andb_true_iff in H as [Hm Hc].
  apply (closed_sound bad p _ f d tr Hc), mem_ctx_In, Hm.
Qed.

Theorem entries_sound bad p d entries :
  forallb (fun f => safe_from bad p (f, d)) entries = true ->
  forall f, In f entries -> forall tr, exec p d (body_of p f) tr -> harmless bad tr.
Proof.
  intros H f Hin. apply safe_from_sound.
  rewrite forallb_forall in H. apply (H f Hin).
Qed.

(* A second checker, for evaluation inside the kernel: [safe_from] tests membership by [mem_ctx] over a list of (nat * bool), comparing
   unary numbers, and computes the closure anew for every entry point.  Here the contexts reachable from ALL entry points are collected
   once by a depth-first walk (unverified: its result is only a candidate) into a tree set of the codes [2 * (f + 1) + dry]; each is
   then checked by the model's own [local_ok] against its own callees, which must all be in the set.  Soundness is [invariant_sound]
   with "member of the candidate" as invariant. *)
Definition enc (c : ctx) : positive := let n := Pos.of_succ_nat (fst c) in if snd c then n~1 else n~0.
Lemma enc_inj a b : enc a = enc b -> a = b.
Proof.
  destruct a as [f d], b as [g e]. unfold enc. cbn [fst snd].
  destruct d, e; intro H; inversion H as [H1]; apply SuccNat2Pos.inj in H1; subst; reflexivity.
Qed.

Definition set_of (S : list ctx) : PS.t := fold_right (fun c => PS.add (enc c)) PS.empty S.
Lemma set_of_In c : forall S, PS.mem (enc c) (set_of S) = true -> In c S.
Proof.
  induction S as [|x S IH]; intro H; [discriminate H|].
  destruct (Pos.eq_dec (enc x) (enc c)) as [E|N]; [left; apply enc_inj, E | right; apply IH; exact (PS.add_3 (set_of S) N H)].
Qed.

Section Fast.
  Variable bad : ekind -> nat -> bool.
  Variable p : prog.

  Fixpoint walk (fuel : nat) (todo : list ctx) (seen : PS.t) (acc : list ctx) : list ctx :=
    match fuel, todo with
    | S n, c :: r => if PS.mem (enc c) seen then walk n r seen acc
                     else walk n (callees (snd c) (body_of p (fst c)) ++ r) (PS.add (enc c) seen) (c :: acc)
    | _, _ => acc
    end.

  Definition ctx_ok (T : PS.t) (c : ctx) : bool :=
    let cs := callees (snd c) (body_of p (fst c)) in
    local_ok bad cs (snd c) (body_of p (fst c)) && forallb (fun c' => PS.mem (enc c') T) cs.
  (* each step takes one context off the list, and one gets on it with the entry points or as a callee of a context visited for the
     first time: this many steps suffice; with fewer the candidate would miss a callee and be rejected *)
  Definition walk_fuel (start : list ctx) : nat :=
    S (length start + length (flat_map (fun b => callees true b ++ callees false b) p)).
  Definition safe_entries (d : bool) (entries : list nat) : bool :=
    let start := map (fun f => (f, d)) entries in
    let S := walk (walk_fuel start) start PS.empty [] in
    let T := set_of S in
    forallb (fun c => PS.mem (enc c) T) start && forallb (ctx_ok T) S.

  Theorem safe_entries_sound d entries : safe_entries d entries = true ->
    forall f, In f entries -> forall tr, exec p d (body_of p f) tr -> harmless bad tr.
  Proof.
    unfold safe_entries. set (S := walk _ _ _ _). intros H f Hin tr. apply andb_true_iff in H as [Hs Hc].
    rewrite forallb_forall in Hs, Hc. apply (invariant_sound bad p (fun c => In c S)).
    - intros f' d' Hin'. specialize (Hc _ Hin'). unfold ctx_ok in Hc. cbn [fst snd] in Hc.
      apply andb_true_iff in Hc as [L M]. eexists. split; [exact L|]. rewrite forallb_forall in M. apply Forall_forall. intros c Hc. apply set_of_In, M, Hc.
    - apply set_of_In, Hs. exact (in_map _ entries f Hin).
  Qed.
End Fast.

Definition ex_prog : prog :=
  [ BCons (If (GDry true) BNil (BCons (Eff KFs 1) BNil))
     (BCons (If GOpaque (BCons (Call 1 DPass) BNil) BNil)
     (BCons (Loop (BCons (If (GImplies false) (BCons (Call 2 DPass) BNil) BNil) BNil)) BNil))
  ; BCons (If (GDry true) BNil (BCons (Eff KFs 2) BNil)) BNil
  ; BCons (Eff KFs 3) BNil ].
Example ex_safe : safe_from bad_fs ex_prog (0, true) = true.
Proof. vm_compute. reflexivity. Qed.
Example ex_not_safe_wet : safe_from bad_fs ex_prog (0, false) = false.
Proof. vm_compute. reflexivity. Qed.
(* a callee invoked with a literal dry_run=False from a dry context is a leak *)
Definition leak_prog : prog :=
  [ BCons (Call 1 (DConst false)) BNil ; BCons (If (GDry true) BNil (BCons (Eff KFs 9) BNil)) BNil ].
Example leak_unsafe : safe_from bad_fs leak_prog (0, true) = false.
Proof. vm_compute. reflexivity. Qed.
Example leak_exec : exec leak_prog true (body_of leak_prog 0) [(KFs, 9)].
Proof.
  change [(KFs, 9)] with ([(KFs, 9)] ++ []). constructor; [|constructor].
  apply ECallC. change [(KFs, 9)] with ([(KFs, 9)] ++ []). constructor; [|constructor].
  apply (EDryF leak_prog false). change [(KFs, 9)] with ([(KFs, 9)] ++ []). constructor; constructor.
Qed.
(* the closure check never unfolds a call: a self-recursive safe function is accepted *)
Definition rec_prog : prog := [ BCons (Loop (BCons (Call 0 DPass) BNil)) BNil ].
Example rec_safe : safe_from bad_fs rec_prog (0, true) = true.
Proof. vm_compute. reflexivity. Qed.
