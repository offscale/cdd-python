(* What the proofs share: facts about the functions of Base/PyStr.v, and the list facts (firstn / skipn / last / NoDup / Forall /
   filter / concat, a boolean equality with its specification in Section Eqb) that the standard library of 8.16 lacks.  dropwhile and
   rdropwhile are the one shape behind the four strip functions. *)
From Coq Require Import Lia.
From CDD Require Import PyStr.

Lemma firstn_app_length {A} (a b : list A) : firstn (length a) (a ++ b) = a.
Proof. rewrite firstn_app, Nat.sub_diag, firstn_all. apply app_nil_r. Qed.
Lemma skipn_app_length {A} (a b : list A) : skipn (length a) (a ++ b) = b.
Proof. rewrite skipn_app, Nat.sub_diag, skipn_all. reflexivity. Qed.
Lemma firstn_min {A} (l : list A) a : firstn (Nat.min a (length l)) l = firstn a l.
Proof. rewrite <- firstn_firstn, firstn_all. reflexivity. Qed.
Lemma skipn_min {A} (l : list A) a n : (length l <= n)%nat -> skipn (Nat.min a n) l = skipn a l.
Proof.
  intro L. destruct (Nat.le_ge_cases a n) as [H|H]; [rewrite Nat.min_l by exact H; reflexivity|].
  rewrite !skipn_all2 by lia. reflexivity.
Qed.

Lemma nth_error_firstn {A} : forall (l : list A) n i, (i < n)%nat -> nth_error (firstn n l) i = nth_error l i.
Proof.
  induction l as [|x l IH]; intros [|n] [|i] H; try reflexivity; try lia. cbn. apply IH. lia.
Qed.

Lemma nth_error_skipn {A} : forall (l : list A) n c, nth_error l n = Some c -> exists r, skipn n l = c :: r.
Proof. induction l as [|x l IH]; intros [|n] c H; try discriminate; [injection H as <-; eexists; reflexivity | apply IH, H]. Qed.

Lemma Forall_firstn {A} (P : A -> Prop) n (l : list A) : Forall P l -> Forall P (firstn n l).
Proof. intro H. revert n. induction H; intros [|n]; cbn; auto. Qed.
Lemma Forall_skipn {A} (P : A -> Prop) n (l : list A) : Forall P l -> Forall P (skipn n l).
Proof. intro H. revert n. induction H; intros [|n]; cbn; auto. Qed.
Lemma forallb_rev {A} (f : A -> bool) (l : list A) : forallb f (rev l) = forallb f l.
Proof. induction l as [|x l IH]; cbn; [reflexivity|]. rewrite forallb_app, IH. cbn. rewrite andb_true_r. apply andb_comm. Qed.
Lemma filter_id {A} (f : A -> bool) l : forallb f l = true -> filter f l = l.
Proof.
  induction l as [|x l IH]; cbn; [reflexivity|]. intro H. apply andb_true_iff in H as [Hx Hl].
  rewrite Hx, IH; auto.
Qed.
Lemma forallb_filter {A} (f : A -> bool) l : forallb f (filter f l) = true.
Proof. induction l as [|x l IH]; [reflexivity|]. cbn [filter]. destruct (f x) eqn:E; [cbn [forallb]; rewrite E|]; exact IH. Qed.
Lemma filter_filter_nil {A} (f g : A -> bool) l : (forall x, g x = true -> f x = false) -> filter f (filter g l) = [].
Proof. intro H. induction l as [|x l IH]; [reflexivity|]. cbn [filter]. destruct (g x) eqn:E; [cbn [filter]; rewrite (H x E)|]; exact IH. Qed.
Lemma forallb_map_impl {A B} (f : A -> bool) (g : B -> bool) (h : A -> B) l :
  (forall x, f x = true -> g (h x) = true) -> forallb f l = true -> forallb g (map h l) = true.
Proof. intros H Hl. rewrite forallb_forall in *. intros y Hy. apply in_map_iff in Hy as [x [<- Hx]]. apply H, Hl, Hx. Qed.
Lemma forallb_Forall {A} (f : A -> bool) l : forallb f l = true <-> Forall (fun x => f x = true) l.
Proof. rewrite forallb_forall, Forall_forall. reflexivity. Qed.
Lemma concat_singletons {A} (l : list A) : concat (map (fun x => [x]) l) = l.
Proof. induction l as [|x l IH]; [reflexivity|]. cbn [map concat app]. rewrite IH. reflexivity. Qed.
Lemma concat_snoc {A} (l : list (list A)) x : concat (l ++ [x]) = concat l ++ x.
Proof. rewrite concat_app. cbn [concat]. rewrite app_nil_r. reflexivity. Qed.
Lemma flat_map_nil {A B} (f : A -> list B) l : (forall x, In x l -> f x = []) -> flat_map f l = [].
Proof. induction l as [|x r IH]; cbn; [reflexivity|]. intro H. rewrite H by (left; reflexivity). apply IH. intros; apply H; right; assumption. Qed.
Lemma match_nonempty {A B} (l : list A) (x y : B) : l <> [] -> match l with [] => x | _ :: _ => y end = y.
Proof. destruct l; [contradiction | reflexivity]. Qed.
Lemma map_ne {A B} (f : A -> B) l : l <> [] -> map f l <> [].
Proof. destruct l; [contradiction | discriminate]. Qed.
Lemma concat_ne {A} (LL : list (list A)) : LL <> [] -> Forall (fun l => l <> []) LL -> concat LL <> [].
Proof.
  destruct LL as [|l r]; [contradiction|]. intros _ H. inversion H as [|? ? Hl _]. cbn [concat].
  intro K. apply app_eq_nil in K. destruct K. contradiction.
Qed.

Lemma last_opt_snoc {A} (l : list A) x : last_opt (l ++ [x]) = Some x.
Proof. induction l as [|a [|b l] IH]; [reflexivity | reflexivity | exact IH]. Qed.
Lemma last_opt_split {A} (l : list A) c : last_opt l = Some c -> exists r, l = r ++ [c].
Proof.
  induction l as [|x [|y t] IH]; intro H; [discriminate | injection H as ->; exists []; reflexivity|].
  destruct (IH H) as [r E]. exists (x :: r). cbn [app]. rewrite <- E. reflexivity.
Qed.
Lemma last_opt_rev {A} (s : list A) : last_opt s = match rev s with c :: _ => Some c | [] => None end.
Proof.
  destruct (rev s) as [|c r] eqn:E.
  - assert (s = []) by (rewrite <- (rev_involutive s), E; reflexivity). subst. reflexivity.
  - assert (s = rev r ++ [c]) by (rewrite <- (rev_involutive s), E; reflexivity). subst. apply last_opt_snoc.
Qed.

Lemma NoDup_app_intro {A} (l1 l2 : list A) :
  NoDup l1 -> NoDup l2 -> (forall x, In x l1 -> ~ In x l2) -> NoDup (l1 ++ l2).
Proof.
  induction l1 as [|a l1 IH]; intros H1 H2 Hd; cbn; [exact H2|].
  inversion H1 as [|? ? Hna Hnd]; subst. constructor.
  - intro Hin. apply in_app_or in Hin as [Hin|Hin]; [contradiction|]. apply (Hd a); [left; reflexivity | exact Hin].
  - apply IH; [exact Hnd | exact H2 | intros x Hx; apply Hd; right; exact Hx].
Qed.
Lemma NoDup_snoc {A} (l : list A) x : NoDup l -> ~ In x l -> NoDup (l ++ [x]).
Proof.
  intros N H. apply NoDup_app_intro; [exact N | repeat constructor; intros []|].
  intros y Hy [<-|[]]. exact (H Hy).
Qed.

Lemma in_keys {K V} (l : list (K * V)) k v : In (k, v) l -> In k (map fst l).
Proof. apply (in_map fst l (k, v)). Qed.
Lemma NoDup_keys_unique {K V} (l : list (K * V)) k v v' :
  NoDup (map fst l) -> In (k, v) l -> In (k, v') l -> v = v'.
Proof.
  induction l as [|[a w] r IH]; cbn; intros Hnd H1 H2; [contradiction|].
  inversion Hnd as [|? ? Hnotin Hnd'].
  destruct H1 as [H1|H1], H2 as [H2|H2]; [congruence | | | eauto].
  - injection H1 as -> ->. destruct Hnotin. eapply in_keys, H2.
  - injection H2 as -> ->. destruct Hnotin. eapply in_keys, H1.
Qed.

Section Eqb.
  Context {A : Type} (eqb : A -> A -> bool).
  Hypothesis eqb_spec : forall a b, eqb a b = true <-> a = b.

  Lemma eqbP a b : reflect (a = b) (eqb a b).
  Proof. apply iff_reflect. symmetry. apply eqb_spec. Qed.
  Lemma eqb_refl a : eqb a a = true.
  Proof. apply eqb_spec. reflexivity. Qed.
  Lemma eqb_neq a b : a <> b -> eqb a b = false.
  Proof. destruct (eqbP a b); [contradiction | reflexivity]. Qed.
  Lemma existsb_eqb_In x l : existsb (eqb x) l = true <-> In x l.
  Proof.
    rewrite existsb_exists. split.
    - intros [y [Hin E]]. apply eqb_spec in E. subst y. exact Hin.
    - intro H. exists x. split; [exact H | apply eqb_refl].
  Qed.
  Lemma existsbP x l : reflect (In x l) (existsb (eqb x) l).
  Proof. apply iff_reflect. symmetry. apply existsb_eqb_In. Qed.
End Eqb.

Lemma str_eqb_eq a : forall b, str_eqb a b = true <-> a = b.
Proof.
  induction a as [|x a IH]; intros [|y b]; cbn; try (split; discriminate); [split; reflexivity|].
  rewrite andb_true_iff, N.eqb_eq, IH. split; [intros [-> ->]; reflexivity | intro H; injection H; auto].
Qed.
Lemma str_eqbP a b : reflect (a = b) (str_eqb a b).
Proof. exact (eqbP str_eqb str_eqb_eq a b). Qed.
Lemma str_eqb_refl a : str_eqb a a = true.
Proof. exact (eqb_refl str_eqb str_eqb_eq a). Qed.
Lemma str_eqb_neq a b : a <> b -> str_eqb a b = false.
Proof. exact (eqb_neq str_eqb str_eqb_eq a b). Qed.
Lemma mem_str_In x l : mem_str x l = true <-> In x l.
Proof. exact (existsb_eqb_In str_eqb str_eqb_eq x l). Qed.
Lemma mem_strP x l : reflect (In x l) (mem_str x l).
Proof. exact (existsbP str_eqb str_eqb_eq x l). Qed.
Lemma existsb_str_false k l : existsb (str_eqb k) l = false -> ~ In k l.
Proof. intros H K. apply mem_str_In in K. unfold mem_str in K. congruence. Qed.

(* the shape the predicates no_colon, one_line, lacks ... of the proofs unfold to *)
Lemma not_in_forallb (c : char) (s : str) : forallb (fun x => negb (x =? c)) s = true <-> ~ In c s.
Proof.
  rewrite forallb_forall. split.
  - intros H K. specialize (H _ K). rewrite N.eqb_refl in H. discriminate.
  - intros H x K. destruct (N.eqb_spec x c) as [->|]; [contradiction | reflexivity].
Qed.

Lemma count_char_app c a b : count_char c (a ++ b) = (count_char c a + count_char c b)%nat.
Proof. induction a as [|x a IH]; cbn; [reflexivity|]. destruct (x =? c); rewrite IH; reflexivity. Qed.
Lemma count_char_in c : forall l, In c l -> count_char c l <> O.
Proof.
  induction l as [|x l IH]; intros H; [contradiction|]. cbn [count_char]. destruct (N.eqb_spec x c) as [E|E]; [discriminate|].
  destruct H as [H|H]; [contradiction | exact (IH H)].
Qed.

Lemma startswith_iff p : forall s, startswith p s = true <-> exists r, s = p ++ r.
Proof.
  induction p as [|c p IH]; intro s; [split; [exists s|]; reflexivity|].
  destruct s as [|x s]; cbn [startswith]; [split; [discriminate | intros [r H]; discriminate]|].
  rewrite andb_true_iff, N.eqb_eq, IH. split; [intros [-> [r ->]]; exists r; reflexivity | intros [r H]; injection H as -> ->; eauto].
Qed.
Lemma startswith_app p r : startswith p (p ++ r) = true.
Proof. apply startswith_iff. exists r. reflexivity. Qed.
Lemma startswith_refl x : startswith x x = true.
Proof. rewrite <- (app_nil_r x) at 2. apply startswith_app. Qed.
Lemma startswith_app_l p a b : startswith p a = true -> startswith p (a ++ b) = true.
Proof. rewrite !startswith_iff. intros [r ->]. exists (r ++ b). symmetry. apply app_assoc. Qed.
Lemma startswith_snoc x c t : startswith (x ++ [c]) t = true -> startswith x t = true.
Proof. rewrite !startswith_iff. intros [r ->]. exists ([c] ++ r). symmetry. apply app_assoc. Qed.

Lemma startswith_snoc_notin x p : ~ In x p -> forall a, startswith p (a ++ [x]) = true -> startswith p a = true.
Proof.
  induction p as [|y p IH]; intros Hx a H; [reflexivity|].
  destruct a as [|z a]; cbn [startswith app] in *; apply andb_prop in H as [H1 H2].
  - apply N.eqb_eq in H1. exfalso. apply Hx. left. exact H1.
  - rewrite H1. apply IH; [|exact H2]. intro K. apply Hx. right. exact K.
Qed.

Lemma endswith_snoc c s x : endswith [c] (s ++ [x]) = (c =? x).
Proof. unfold endswith. rewrite rev_app_distr. cbn. apply andb_true_r. Qed.

Lemma contains_iff p : forall s, contains p s = true <-> exists a b, s = a ++ p ++ b.
Proof.
  assert (K : forall s, contains p s = startswith p s || match s with [] => false | _ :: r => contains p r end) by (destruct s; reflexivity).
  induction s as [|c s IH]; rewrite K, orb_true_iff, startswith_iff.
  - split; [intros [[b H]|H]; [exists [], b; exact H | discriminate] | intros [[|x a] [b H]]; [left; exists b; exact H | discriminate]].
  - rewrite IH. split.
    + intros [[b H]|[a [b H]]]; [exists [], b; exact H | exists (c :: a), b; rewrite H; reflexivity].
    + intros [[|x a] [b H]]; [left; exists b; exact H | right; injection H as _ H; eauto].
Qed.
Lemma contains_at p a b : contains p (a ++ p ++ b) = true.
Proof. apply contains_iff. eauto. Qed.
Lemma contains_self s : contains s s = true.
Proof. rewrite <- (app_nil_r s) at 2. apply (contains_at s []). Qed.
Lemma contains_app_r p a b : contains p b = true -> contains p (a ++ b) = true.
Proof. rewrite !contains_iff. intros [x [y ->]]. exists (a ++ x), y. apply app_assoc. Qed.

Lemma suffix_app {A} (a m x : list A) : (exists p, m = p ++ x) -> exists p, a ++ m = p ++ x.
Proof. intros [p ->]. exists (a ++ p). apply app_assoc. Qed.
(* an occurrence of k in x ++ c :: y, with c not in k, lies wholly in x or wholly in y *)
Lemma occurrence_split {A} (k : list A) c x y a b : ~ In c k -> x ++ c :: y = a ++ k ++ b ->
  (exists b', x = a ++ k ++ b' /\ b = b' ++ c :: y) \/ (exists a', y = a' ++ k ++ b /\ a = x ++ c :: a').
Proof.
  intros Hc E. apply app_eq_app in E as [l [[-> E] | [-> E]]].
  - left. apply app_eq_app in E as [m [[-> E] | [-> ->]]]; [|exists m; split; reflexivity].
    destruct m as [|c' m]; cbn [app] in E; [exists []; rewrite !app_nil_r; split; [reflexivity | symmetry; exact E]|].
    injection E as <- _. destruct Hc. apply in_or_app. right. left. reflexivity.
  - destruct l as [|c' l]; cbn [app] in E; [|injection E as <- ->; right; exists l; split; reflexivity].
    destruct k as [|c' k]; [left; exists []; rewrite !app_nil_r; split; [reflexivity | symmetry; exact E]|].
    injection E as -> _. destruct Hc. left. reflexivity.
Qed.

Lemma slen_nonneg s : (0 <= slen s)%Z. Proof. unfold slen. lia. Qed.
Lemma slen_app (a b : str) : slen (a ++ b) = (slen a + slen b)%Z.
Proof. unfold slen. rewrite app_length. lia. Qed.
Lemma slen_cons c (s : str) : slen (c :: s) = (1 + slen s)%Z.
Proof. exact (slen_app [c] s). Qed.

Lemma find_from_absent p : forall s i, contains p s = false -> find_from p s i = (-1)%Z.
Proof.
  induction s as [|c r IH]; intros i H; cbn [contains find_from] in *; apply orb_false_iff in H as [-> H]; [reflexivity | apply IH, H].
Qed.
Lemma replace1_absent p b s : contains p s = false -> replace1 p b s = s.
Proof. intro H. unfold replace1, find. rewrite (find_from_absent p s 0 H). reflexivity. Qed.
Lemma find_from_range p : forall s i, find_from p s i = (-1)%Z \/ (i <= find_from p s i <= i + slen s)%Z.
Proof.
  induction s as [|c r IH]; intro i; cbn [find_from]; destruct (startswith p _).
  - right. cbn. lia.
  - left. reflexivity.
  - right. pose proof (slen_nonneg (c :: r)). lia.
  - destruct (IH (i + 1)%Z) as [H|H]; [left; exact H | right]. rewrite slen_cons. lia.
Qed.
Lemma find_from_skip c : forall pre rest i, ~ In c pre -> find_from [c] (pre ++ c :: rest) i = (i + slen pre)%Z.
Proof.
  induction pre as [|a pre IH]; intros rest i H; cbn [app find_from startswith].
  - rewrite N.eqb_refl. cbn. lia.
  - destruct (N.eqb_spec c a) as [->|_]; [exfalso; apply H; left; reflexivity|]. cbn [andb].
    rewrite IH by (intro K; apply H; right; exact K). rewrite slen_cons. lia.
Qed.

Lemma norm_idx_nonneg n i : (0 <= i)%Z -> norm_idx n i = Z.min i n.
Proof. intro H. unfold norm_idx. rewrite (proj2 (Z.ltb_ge i 0) H). reflexivity. Qed.
Lemma slice_from_nonneg s a : (0 <= a)%Z -> slice_from s a = skipn (Z.to_nat a) s.
Proof. intro H. unfold slice_from, slen. rewrite norm_idx_nonneg, Z2Nat.inj_min, Nat2Z.id by exact H. apply skipn_min, le_n. Qed.
Lemma slice_nonneg s a b : (0 <= a)%Z -> (0 <= b)%Z -> slice s a b = skipn (Z.to_nat a) (firstn (Z.to_nat b) s).
Proof.
  intros Ha Hb. unfold slice, slen. rewrite !norm_idx_nonneg, Z2Nat.inj_sub, !Z2Nat.inj_min, Nat2Z.id by (try apply Z.min_glb; lia).
  rewrite <- skipn_firstn_comm, firstn_min. apply skipn_min. rewrite firstn_length. apply Nat.le_min_r.
Qed.
Lemma slice_to_nonneg s b : (0 <= b)%Z -> slice_to s b = firstn (Z.to_nat b) s.
Proof. exact (slice_nonneg s 0 b (Z.le_refl 0)). Qed.

(* the splitting of s and the indices are given up to equations, for the caller to settle by [reflexivity], [app_assoc] or [lia] *)
Lemma slice_from_app (s pre rest : str) i : s = pre ++ rest -> i = slen pre -> slice_from s i = rest.
Proof. intros -> ->. rewrite slice_from_nonneg by apply slen_nonneg. unfold slen. rewrite Nat2Z.id. apply skipn_app_length. Qed.
Lemma slice_mid (s a b c : str) i j : s = a ++ b ++ c -> i = slen a -> j = (i + slen b)%Z -> slice s i j = b.
Proof.
  intros -> -> ->. pose proof (slen_nonneg a). pose proof (slen_nonneg b). rewrite slice_nonneg by lia. unfold slen.
  rewrite Z2Nat.inj_add, !Nat2Z.id, firstn_app_2, firstn_app_length by lia. apply skipn_app_length.
Qed.
Lemma slice_to_app (s pre rest : str) i : s = pre ++ rest -> i = slen pre -> slice_to s i = pre.
Proof. intros -> ->. exact (slice_mid _ [] pre rest _ _ eq_refl eq_refl eq_refl). Qed.
Lemma slice_to_from s a : slice_to s a ++ slice_from s a = s.
Proof.
  unfold slice_to, slice, slice_from. replace (norm_idx (slen s) 0) with 0%Z by (pose proof (slen_nonneg s); unfold norm_idx; cbn; lia).
  rewrite Z.sub_0_r. apply firstn_skipn.
Qed.
Lemma slice_tile s a b : (0 <= a <= b)%Z -> slice_to s a ++ slice s a b ++ slice_from s b = s.
Proof.
  intro H. rewrite slice_to_nonneg, slice_nonneg, slice_from_nonneg by lia.
  rewrite <- (Nat.min_l (Z.to_nat a) (Z.to_nat b)) at 1 by lia. rewrite <- firstn_firstn, app_assoc, !firstn_skipn. reflexivity.
Qed.
Lemma slice_from_end s a : (slen s <= a)%Z -> slice_from s a = [].
Proof. intro H. pose proof (slen_nonneg s). rewrite slice_from_nonneg by lia. apply skipn_all2. unfold slen in *. lia. Qed.
Lemma slice_end s a : (0 <= a)%Z -> slice s a (slen s) = slice_from s a.
Proof.
  intro H. rewrite slice_nonneg, slice_from_nonneg by (try apply slen_nonneg; exact H). unfold slen. rewrite Nat2Z.id, firstn_all. reflexivity.
Qed.

Lemma index_nonneg s i : (0 <= i)%Z -> index s i = nth_error s (Z.to_nat i).
Proof.
  (* i <? 0 is asked twice: of i, and of the index j = i that the first answer selects *)
  intro H. unfold index. replace (i <? 0)%Z with false by lia. replace (i <? 0)%Z with false by lia. cbn [orb].
  destruct (Z.leb_spec (slen s) i); [|reflexivity]. symmetry. apply nth_error_None. unfold slen in *. lia.
Qed.
Lemma index_range s i : index s i <> None -> (- slen s <= i < slen s)%Z.
Proof.
  unfold index. destruct (i <? 0)%Z eqn:E;
    [destruct ((slen s + i <? 0) || (slen s <=? slen s + i))%Z eqn:E2 | destruct ((i <? 0) || (slen s <=? i))%Z eqn:E2]; try congruence; lia.
Qed.

Fixpoint dropwhile (f : char -> bool) (s : str) : str :=
  match s with c :: r => if f c then dropwhile f r else s | [] => [] end.
Definition rdropwhile (f : char -> bool) (s : str) : str := rev (dropwhile f (rev s)).
Definition among (cs : str) (c : char) : bool := existsb (ceq c) cs.

Lemma lstrip_dropwhile s : lstrip s = dropwhile is_space s.
Proof. induction s as [|c r IH]; cbn; [|rewrite IH]; reflexivity. Qed.
Lemma lstrip_chars_dropwhile cs s : lstrip_chars cs s = dropwhile (among cs) s.
Proof. induction s as [|c r IH]; cbn; [|rewrite IH]; reflexivity. Qed.
Lemma rstrip_rdropwhile s : rstrip s = rdropwhile is_space s.
Proof. unfold rstrip, rdropwhile. rewrite lstrip_dropwhile. reflexivity. Qed.
Lemma rstrip_chars_rdropwhile cs s : rstrip_chars cs s = rdropwhile (among cs) s.
Proof. unfold rstrip_chars, rdropwhile. rewrite lstrip_chars_dropwhile. reflexivity. Qed.

Lemma dropwhile_suffix f : forall s, exists t, s = t ++ dropwhile f s.
Proof.
  induction s as [|c r [t IH]]; [exists []; reflexivity|]. cbn [dropwhile]. destruct (f c); [|exists []; reflexivity].
  exists (c :: t). cbn [app]. rewrite <- IH. reflexivity.
Qed.
Lemma dropwhile_head f : forall s, match dropwhile f s with c :: _ => f c = false | [] => True end.
Proof. induction s as [|c r IH]; [exact I|]. cbn [dropwhile]. destruct (f c) eqn:E; [exact IH | exact E]. Qed.
Lemma dropwhile_id f s : match s with c :: _ => f c = false | [] => True end -> dropwhile f s = s.
Proof. destruct s as [|c r]; [reflexivity|]. cbn. intros ->. reflexivity. Qed.
Lemma dropwhile_idem f s : dropwhile f (dropwhile f s) = dropwhile f s.
Proof. apply dropwhile_id, dropwhile_head. Qed.
Lemma dropwhile_app f a b : forallb f a = true -> dropwhile f (a ++ b) = dropwhile f b.
Proof. induction a as [|c a IH]; [reflexivity|]. cbn. intro H. apply andb_true_iff in H as [-> H]. exact (IH H). Qed.

Lemma rdropwhile_prefix f s : exists t, s = rdropwhile f s ++ t.
Proof.
  unfold rdropwhile. destruct (dropwhile_suffix f (rev s)) as [t E]. exists (rev t). rewrite <- rev_app_distr, <- E. symmetry. apply rev_involutive.
Qed.
Lemma rdropwhile_idem f s : rdropwhile f (rdropwhile f s) = rdropwhile f s.
Proof. unfold rdropwhile. rewrite rev_involutive, dropwhile_idem. reflexivity. Qed.
Lemma rdropwhile_snoc f s c : rdropwhile f (s ++ [c]) = if f c then rdropwhile f s else s ++ [c].
Proof. unfold rdropwhile. rewrite rev_app_distr. cbn. destruct (f c); [reflexivity|]. cbn. rewrite rev_involutive. reflexivity. Qed.

Lemma lstrip_idem s : lstrip (lstrip s) = lstrip s.
Proof. rewrite !lstrip_dropwhile. apply dropwhile_idem. Qed.
Lemma strip_lstrip s : strip (lstrip s) = strip s.
Proof. unfold strip. rewrite lstrip_idem. reflexivity. Qed.
Lemma rstrip_idem s : rstrip (rstrip s) = rstrip s.
Proof. rewrite !rstrip_rdropwhile. apply rdropwhile_idem. Qed.
Lemma lstrip_rstrip y : lstrip y = y -> lstrip (rstrip y) = rstrip y.
Proof.
  intro H. destruct y as [|c r]; [reflexivity|].
  pose proof (dropwhile_head is_space (c :: r)) as V. rewrite <- lstrip_dropwhile, H in V.
  unfold rstrip. cbn [rev].
  assert (K : exists t, lstrip (rev r ++ [c]) = t ++ [c]).
  { generalize (rev r). intro l. induction l as [|x l IH]; cbn [app lstrip]; [rewrite V; exists []; reflexivity|].
    destruct (is_space x); [exact IH | exists (x :: l); reflexivity]. }
  destruct K as [t ->]. rewrite rev_app_distr. cbn [rev app]. cbn [lstrip]. rewrite V. reflexivity.
Qed.

Lemma join_cons_ne (sep x : str) (l : list str) : l <> [] -> join sep (x :: l) = x ++ sep ++ join sep l.
Proof. destruct l; [contradiction | reflexivity]. Qed.
Lemma join_app_ne (sep : str) : forall a b, a <> [] -> b <> [] -> join sep (a ++ b) = join sep a ++ sep ++ join sep b.
Proof.
  induction a as [|x a IH]; intros b Ha Hb; [contradiction|]. destruct a as [|y a].
  - cbn [app]. rewrite join_cons_ne by exact Hb. reflexivity.
  - change ((x :: y :: a) ++ b) with (x :: (y :: a) ++ b). rewrite join_cons_ne by discriminate.
    rewrite IH by (try discriminate; exact Hb). rewrite (join_cons_ne sep x (y :: a)) by discriminate.
    rewrite <- !app_assoc. reflexivity.
Qed.
Lemma join_concat (sep : str) : forall LL : list (list str), Forall (fun l => l <> []) LL ->
  join sep (map (join sep) LL) = join sep (concat LL).
Proof.
  induction LL as [|l r IH]; intro H; [reflexivity|]. inversion H as [|? ? Hl Hr].
  destruct r as [|l2 r2]; [cbn; rewrite app_nil_r; reflexivity|].
  cbn [map]. rewrite join_cons_ne by discriminate. change (join sep l2 :: map (join sep) r2) with (map (join sep) (l2 :: r2)).
  rewrite (IH Hr). change (concat (l :: l2 :: r2)) with (l ++ concat (l2 :: r2)). rewrite join_app_ne; [reflexivity | exact Hl | apply concat_ne; [discriminate | exact Hr]].
Qed.
Lemma join_nonempty sep (ms : list str) : ms <> [] -> Forall (fun m => m <> []) ms -> join sep ms <> [].
Proof.
  destruct ms as [|m r]; [congruence|]. intros _ Hf. inversion Hf as [|? ? Hm _].
  destruct r; cbn; [exact Hm|]. destruct m; [congruence|]. discriminate.
Qed.
Lemma join_snoc (sep : str) : forall (A : list str) (x : str), exists z, join sep (A ++ [x]) = z ++ x.
Proof.
  induction A as [|a A IH]; intro x; [exists []; reflexivity|]. destruct (IH x) as [z E].
  cbn [app]. rewrite join_cons_ne by (destruct A; discriminate). rewrite E. exists (a ++ sep ++ z). rewrite <- !app_assoc. reflexivity.
Qed.
Lemma join_map_app (sep p : str) : forall l : list str, l <> [] -> join sep (map (app p) l) = p ++ join (sep ++ p) l.
Proof.
  induction l as [|x [|y r] IH]; intro H; [contradiction | reflexivity|].
  change (map (app p) (x :: y :: r)) with ((p ++ x) :: map (app p) (y :: r)). rewrite !join_cons_ne by discriminate.
  rewrite IH by discriminate. rewrite <- !app_assoc. reflexivity.
Qed.

Lemma split_char_aux_snoc sep : forall s cur, split_char_aux sep (s ++ [sep]) cur = split_char_aux sep s cur ++ [[]].
Proof.
  induction s as [|c r IH]; intro cur; cbn [app split_char_aux].
  - rewrite N.eqb_refl. reflexivity.
  - destruct (c =? sep); [rewrite IH; reflexivity | apply IH].
Qed.
Lemma split_char_aux_app sep m : ~ In sep m -> forall cur rest,
  split_char_aux sep (m ++ rest) cur = split_char_aux sep rest (rev m ++ cur).
Proof.
  induction m as [|c m IH]; intros Hn cur rest; [reflexivity|].
  cbn [app split_char_aux]. destruct (N.eqb_spec c sep) as [->|_]; [destruct Hn; left; reflexivity|].
  rewrite IH by (intro H; apply Hn; right; exact H). cbn [rev]. rewrite <- app_assoc. reflexivity.
Qed.
Lemma split_char_absent sep m : ~ In sep m -> split_char sep m = [m].
Proof.
  intro Hn. unfold split_char. rewrite <- (app_nil_r m) at 1. rewrite split_char_aux_app by exact Hn.
  cbn. rewrite app_nil_r, rev_involutive. reflexivity.
Qed.
Lemma split_char_cons sep m rest : ~ In sep m -> split_char sep (m ++ sep :: rest) = m :: split_char sep rest.
Proof.
  intro Hn. unfold split_char. rewrite split_char_aux_app by exact Hn. cbn [split_char_aux]. rewrite N.eqb_refl.
  rewrite app_nil_r, rev_involutive. reflexivity.
Qed.
Lemma split_join sep l : l <> [] -> Forall (fun m => ~ In sep m) l -> split_char sep (join [sep] l) = l.
Proof.
  induction l as [|m r IH]; [congruence|]. intros _ Hf. inversion Hf as [|? ? Hm Hr].
  destruct r as [|m2 r2]; [apply split_char_absent, Hm|].
  change (join [sep] (m :: m2 :: r2)) with (m ++ sep :: join [sep] (m2 :: r2)).
  rewrite split_char_cons, IH by (assumption || congruence). reflexivity.
Qed.

Lemma split_str_aux_app c sep : forall t fuel rest cur, ~ In c t ->
  split_str_aux (length t + fuel) (c :: sep) (t ++ rest) cur = split_str_aux fuel (c :: sep) rest (rev t ++ cur).
Proof.
  induction t as [|a t IH]; intros fuel rest cur H; [reflexivity|]. cbn [length Nat.add app split_str_aux startswith].
  destruct (N.eqb_spec c a) as [->|_]; [destruct H; left; reflexivity|]. cbn [andb].
  rewrite IH by (intro K; apply H; right; exact K). cbn [rev]. rewrite <- app_assoc. reflexivity.
Qed.
Lemma split_str_absent c sep t : ~ In c t -> split_str (c :: sep) t = [t].
Proof.
  intro H. unfold split_str. rewrite <- (app_nil_r t) at 2. rewrite <- Nat.add_1_r, split_str_aux_app by exact H.
  cbn. rewrite app_nil_r, rev_involutive. reflexivity.
Qed.
